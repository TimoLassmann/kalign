(* C06 - Alignments survive a write/read round trip in every format.
   Each statement is derived from the results of FormatsProofs.v (reader core, lines, FASTA), FormatsProofs2.v (what the
   writers print) and FormatsProofs3.v (Clustal and MSF, as instances of the reading of any block layout).
   Proved: the shared reader core for all three formats (any cutting of a row into lines rebuilds
   the row), line splitting, and the complete round trip at file level for FASTA, Clustal and MSF:
   kalign_read_input (incl. line reading and format sniffing) applied to the bytes the writer
   produced returns records whose names and gapped rows are the written ones - any number of rows,
   any width (multiples of 60 included), names of 1..200 bytes.  That the writer and reader models
   are msa_io.c is the byte-exact correspondence checked on every run, together with round-trip
   runs over all nine ordered format pairs (DESIGN C06). *)
From KV Require Import Base Params Weave Formats FormatsProofs FormatsProofs2 FormatsProofs3.
From Coq Require Import String.
Import Coq.Init.Datatypes.
Local Open Scope list_scope.
Local Open Scope Z_scope.

(* the reader core shared by read_fasta, read_clu and read_msf: however a gapped row is cut into
   line pieces, feeding the pieces rebuilds the row (letters kept with their case, punctuation as
   gaps in the same places) and the residues are exactly the letters *)
Theorem C06_reader_core : forall chunks r, rec_wf r ->
  let r' := fold_left feed_line chunks r in
  rec_wf r' /\ row_of r' = row_of r ++ norm (List.concat chunks) /\ rr_name r' = rr_name r /\
  rr_res r' = rr_res r ++ filter isalpha (List.concat chunks).
Proof. exact feed_chunks_row. Qed.
Print Assumptions C06_reader_core.

Theorem C06_rows_of_letters_and_dashes_are_fixed_points : forall l, Forall rowchar l -> norm l = l.
Proof. exact norm_rowchars. Qed.
Print Assumptions C06_rows_of_letters_and_dashes_are_fixed_points.

(* read_file_stdin inverts the writers' line output *)
Theorem C06_lines_roundtrip : forall ls, Forall clean_line ls -> read_lines (unlines ls) = ls.
Proof. exact read_lines_unlines. Qed.
Print Assumptions C06_lines_roundtrip.

(* FASTA, complete: kalign_read_input on the bytes write_msa_fasta produced returns records whose
   names and gapped rows are the written ones - any number of rows, any width (multiples of 60
   included), any non-empty names without control bytes, blanks, '!' and ':' *)
Theorem C06_fasta_roundtrip : forall rows,
  rows <> [] -> Forall (fun nr => name_ok (fst nr) /\ good_row (snd nr)) rows ->
  exists h, read_one (write_fasta rows) = Some (Some (mkM (map rec_of rows) h)) /\
            rows_of (map rec_of rows) = rows.
Proof.
  intros rows Hne Hall. destruct (read_one_written_fasta rows Hne Hall) as (h & H).
  exists h. split; [exact H|]. apply rec_of_rows.
  eapply Forall_impl; [|exact Hall]. simpl. tauto.
Qed.
Print Assumptions C06_fasta_roundtrip.

(* Clustal, complete.  [version] is the compile-time version string (no control byte). *)
Theorem C06_clustal_roundtrip : forall version rows alnlen,
  clean_line version -> rows <> [] ->
  Forall (fun nr => name_ok (fst nr) /\ good_row (snd nr) /\ length (snd nr) = alnlen /\ (length (fst nr) <= 200)%nat) rows ->
  (1 <= alnlen)%nat ->
  exists m, read_one (write_clu version alnlen rows) = Some (Some m) /\ rows_of (m_recs m) = rows.
Proof.
  intros version rows alnlen Hv Hne Hall Hlen.
  destruct (read_one_written_clu version rows alnlen Hv Hall Hlen) as (m & H1 & H2 & _). exists m. split; assumption.
Qed.
Print Assumptions C06_clustal_roundtrip.

(* MSF, complete.  Names must not contain '/' (a "//" would end the header).  The title line carries two free
   texts - the output file's base name and a date: the statement needs that line to contain no control byte, no
   "//", no "Name:" and no Clustal marker ([title_inert], [hint_clu]); all four are decidable on the written line,
   and hold for kalign's date format and any base name without those substrings (Example below). *)
Theorem C06_msf_roundtrip : forall base date protein rows alnlen,
  title_inert (msf_title base date protein alnlen rows) -> hint_clu (msf_title base date protein alnlen rows) = false ->
  Forall (fun nr => name_ok (fst nr) /\ good_row (snd nr) /\ length (snd nr) = alnlen /\ (length (fst nr) <= 200)%nat /\ ~ In 47 (fst nr)) rows ->
  (1 <= alnlen)%nat ->
  exists m, read_one (write_msf base date protein alnlen rows) = Some (Some m) /\ rows_of (m_recs m) = rows.
Proof.
  intros base date protein rows alnlen Ht Hc Hall Hlen.
  destruct (read_one_written_msf base date protein rows alnlen Ht Hc Hall) as (m & H1 & H2 & _). exists m. split; assumption.
Qed.
Print Assumptions C06_msf_roundtrip.

(* the title-line premises hold for a realistic title: base name "out.msf", date "September 29, 2026 10:15" *)
Example C06_msf_title_premises :
  let rows := [([115;49], [65;67;45;71;84]); ([115;50;124;95], [97;45;45;71;116])] in
  let t := msf_title (bytes_of_string "out.msf"%string) (bytes_of_string "September 29, 2026 10:15"%string) true 5 rows in
  forallb (fun c => negb (iscntrl c)) t = true /\ has t "//"%string = false /\ after (bytes_of_string "Name:"%string) t = None /\ hint_clu t = false.
Proof. vm_compute. repeat split; reflexivity. Qed.

Example C06_nonvacuous :
  let rows := [([115;49], [65;67;45;71;84]); ([115;50;124;95], [97;45;45;71;116])] in
  forallb (fun nr => forallb (fun c => isalpha c || (c =? dash)) (snd nr)) rows = true /\
  (exists m, read_one (write_clu [51] 5 rows) = Some (Some m) /\ rows_of (m_recs m) = rows) /\
  (exists m, read_one (write_msf [111] [68] false 5 rows) = Some (Some m) /\ rows_of (m_recs m) = rows).
Proof.
  split; [vm_compute; reflexivity|].
  split; eexists; split; vm_compute; reflexivity.
Qed.
