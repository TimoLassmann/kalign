(* C11 - The bit-parallel distance kernel equals the edit distance it stands for.
   Proved, for EVERY text and EVERY non-empty pattern (no upper bound on lengths, any symbols), over the bit-level model of
   bpm.c (BpmBits.v: a uint64_t is 64 bits, '+' is binary addition with carry propagation modulo 2^64,
   '<< 1' drops the top bit):
     C11_block : the blocked routine bpm_block - the one kalign uses - returns the minimum over the columns of
                 Sellers' semi-global recurrence D[i][j] = min(D[i-1][j-1] + [p_i <> t_j], D[i-1][j] + 1,
                 D[i][j-1] + 1), D[0][j] = 0, D[i][0] = i for the first 1024 pattern symbols ([sed]);
     C11_bpm64 : the one-word routine bpm returns the same for patterns of 1..63 symbols, hence the two agree.
   The proof is the Myers/Hyyro argument made explicit: the cell function on delta encodings; a row-serial
   column step equal to the recurrence; the word-level formulas (bpm's and those of the block step inside bpm_block) equal to
   the row-serial step because the adder's carry chain IS the chain of "horizontal delta = -1"; blocks chained
   by the border delta; the active-block bookkeeping shown inert (score <= m + 63 < maxd + 64); and the
   wildcard padding of the last block together with the text padding shown neutral (a two-sided bound on the
   wildcard rows).
   C11_is_min_substring_edit_distance closes the specification side (Sellers 1980): the recurrence [sed] is
   attained by the Levenshtein distance between the pattern and some substring of the text, and no substring
   does better; edit distance is the least cost of an edit script ([script]) = the executable [lev].
   C11_bpm256 : the AVX2 routine bpm_256 (four 64-bit lanes) returns the same for the first 255 pattern symbols:
                the bit-level step proved at any word width, and the lane operations of the model - and/or/xor/not,
                add256 with Yee's carry trick (generate/propagate masks resolved by one integer addition), the
                cross-lane shift, testz against the single-bit MASK, the match masks - proved to BE the 256-bit word
                operations (Bpm256Proofs.v).
   C11_instances : on two concrete inputs, the equations for bpm_block_bits and bpm256 are instances of C11_block and
                C11_bpm256; only the equations for the N-word routines bpm_block and bpm64 of Bpm.v are evaluated. No
                theorem speaks of those two: this run is the one place inside Coq where they are compared with [sed]. *)
From KV Require Import ListFacts Base Bpm BpmProofs BpmBits BpmBitsProofs SellersProofs Bpm256Proofs.
Local Open Scope Z_scope.

Theorem C11_block : forall t p, (1 <= length p)%nat ->
  bpm_block_bits t p = sed t (firstn 1024 p).
Proof. exact bpm_block_bits_is_sed. Qed.
Print Assumptions C11_block.

(* what the routine returns, said without any recurrence: the least edit distance between the (first 1024 symbols of
   the) pattern and a substring of the text - attained, and not beaten *)
Theorem C11_is_min_substring_edit_distance : forall t p, (1 <= length p)%nat ->
  (exists pre u post, t = (pre ++ u ++ post)%list /\ lev u (firstn 1024 p) = bpm_block_bits t p) /\
  (forall pre u post, t = (pre ++ u ++ post)%list -> bpm_block_bits t p <= lev u (firstn 1024 p)).
Proof. intros t p H. rewrite (bpm_block_bits_is_sed t p H). exact (sed_is_min_substring_lev t (firstn 1024 p)). Qed.
Print Assumptions C11_is_min_substring_edit_distance.

Theorem C11_lev_is_least_script_cost : forall a b, script (lev a b) a b /\ forall c, script c a b -> lev a b <= c.
Proof. intros a b. split; [apply lev_script|intros c; apply lev_min]. Qed.
Print Assumptions C11_lev_is_least_script_cost.

Theorem C11_bpm64 : forall t p, (1 <= length p <= 63)%nat ->
  bpm64_bits t p = sed t p.
Proof.
  (* bpm() is the one-word routine at width 64, started from 2^m - 1 *)
  intros t p H. rewrite bpm64_bits_is_bpmw. cbv zeta. rewrite firstn_all2 by lia. apply bpmw_bits_is_sed.
  - unfold W. lia.
  - rewrite app_length, !repeat_length. unfold W. lia.
  - rewrite firstn_app, repeat_length, Nat.sub_diag, firstn_all2 by (rewrite repeat_length; lia). apply app_nil_r.
Qed.
Print Assumptions C11_bpm64.

Corollary C11_bpm64_agrees_with_block : forall t p, (1 <= length p <= 63)%nat ->
  bpm64_bits t p = bpm_block_bits t p.
Proof.
  intros t p H. rewrite C11_bpm64 by exact H. rewrite C11_block by lia.
  rewrite firstn_all2 by lia. reflexivity.
Qed.
Print Assumptions C11_bpm64_agrees_with_block.

(* the padding argument on its own: W wildcard rows below the pattern and W extra text columns change nothing *)
Theorem C11_padding_is_neutral : forall q, (1 <= length q)%nat -> forall Wd t,
  sedg (rowsP q Wd) (length q + Wd) (Z.of_nat (length q)) (t ++ repeat 0 Wd) = sed t q.
Proof. exact padding_neutral. Qed.
Print Assumptions C11_padding_is_neutral.

Theorem C11_cell_function : forall (e vp vn hp hn : bool) (a : Z), vp && vn = false -> hp && hn = false ->
  let up := a + dv vp vn in
  let l := a + dv hp hn in
  let d := Z.min (Z.min (a + (if e then 0 else 1)) (up + 1)) (l + 1) in
  let r := cellf e vp vn hp hn in
  fst (fst r) && snd (fst r) = false /\ fst (snd r) && snd (snd r) = false /\
  dv (fst (fst r)) (snd (fst r)) = d - l /\ dv (fst (snd r)) (snd (snd r)) = d - up.
Proof. exact cell_spec. Qed.
Print Assumptions C11_cell_function.

Theorem C11_word_formulas_are_the_serial_step : forall Eq VP VN hpin hnin,
  length VP = length Eq -> length VN = length Eq -> valid VP VN ->
  word_step Eq VP VN hnin hpin hnin = serial Eq VP VN hpin hnin.
Proof. exact word_step_serial. Qed.
Print Assumptions C11_word_formulas_are_the_serial_step.

(* the first 255 pattern symbols count, as in the C code *)
Theorem C11_bpm256 : forall t p, (1 <= length p)%nat -> bpm256 t p = sed t (firstn 255 p).
Proof.
  intros t p H. rewrite bpm256_is_bpmw by exact H. apply bpmw_bits_is_sed.
  - rewrite firstn_length. lia.
  - apply repeat_length.
  - rewrite firstn_repeat, firstn_length. f_equal. lia.
Qed.
Print Assumptions C11_bpm256.

Corollary C11_all_three_routines_agree : forall t p, (1 <= length p <= 63)%nat ->
  bpm64_bits t p = bpm_block_bits t p /\ bpm256 t p = bpm_block_bits t p.
Proof.
  intros t p H. split; [apply C11_bpm64_agrees_with_block; exact H|].
  rewrite C11_bpm256 by lia. rewrite C11_block by lia. rewrite !firstn_all2 by lia. reflexivity.
Qed.
Print Assumptions C11_all_three_routines_agree.

(* the carry trick of add256 on its own: the four lanes are the 256-bit sum, carries rippling through *)
Theorem C11_add256_is_256_bit_addition : forall a0 a1 a2 a3 b0 b1 b2 b3,
  (a0 < w64 -> a1 < w64 -> a2 < w64 -> a3 < w64 -> b0 < w64 -> b1 < w64 -> b2 < w64 -> b3 < w64 ->
   add256 [a0; a1; a2; a3] [b0; b1; b2; b3] = ripple_lanes [a0; a1; a2; a3] [b0; b1; b2; b3] false)%N.
Proof. exact add256_ripple. Qed.
Print Assumptions C11_add256_is_256_bit_addition.

Theorem C11_spec_upper_bound : forall t p, sed t p <= Z.of_nat (length p).
Proof.
  intros t p. unfold sed.
  pose proof (sed_fold_le t p (map (fun i => Z.of_nat i + 1) (seq 0 (length p))) (Z.of_nat (length p))) as H.
  destruct (fold_left _ t _) as [col best]. exact H.
Qed.
Print Assumptions C11_spec_upper_bound.
Theorem C11_spec_empty_text : forall p, sed [] p = Z.of_nat (length p).
Proof. reflexivity. Qed.
Print Assumptions C11_spec_empty_text.

Example C11_instances :
  let t := [0;1;2;3;4;5;6;0;1;2;3;4;5;6;7;8;9;10;11;12;0;0;1;1;2] in
  let p := [2;3;9;5;6;0;1] in
  bpm_block_bits t p = sed t p /\ bpm_block t p = sed t p /\ bpm64 t p = sed t p /\ bpm256 t p = sed t p /\
  let p2 := (p ++ p ++ p ++ p ++ p ++ p ++ p ++ p ++ p ++ p)%list in
  let t2 := (t ++ t ++ t ++ t)%list in
  bpm_block_bits t2 p2 = sed t2 p2 /\ bpm256 t2 p2 = sed t2 p2.
Proof.
  intros t p.
  assert (B : forall t p, (1 <= length p <= 1024)%nat -> bpm_block_bits t p = sed t p).
  { intros t0 p0 H. rewrite C11_block by lia. rewrite firstn_all2 by lia. reflexivity. }
  assert (Q : forall t p, (1 <= length p <= 255)%nat -> bpm256 t p = sed t p).
  { intros t0 p0 H. rewrite C11_bpm256 by lia. rewrite firstn_all2 by lia. reflexivity. }
  split; [apply B; subst p; cbn [length]; lia|].
  split; [vm_compute; reflexivity|]. split; [vm_compute; reflexivity|].
  split; [apply Q; subst p; cbn [length]; lia|].
  intros p2 t2. split; [apply B|apply Q]; subst p2 p; rewrite !app_length; cbn [length]; lia.
Qed.
