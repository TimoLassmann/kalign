(* C08 - Identical sequences are aligned without gaps.
   PARTIAL.  Proved (pure lists, every guide tree, any number of copies): the diagonal raw path expands to
   matches only, and a run all of whose merges are all-match leaves every row gap-free - so the property
   reduces to "each kernel returns the diagonal on equal operands".
   Proved for that last step, in EXACT arithmetic (the kernel text of Kernels.v - both passes, the meetup with
   its tie-break, the Hirschberg controller - run over integers with minus infinity, every binary32 parameter
   taken at its real value): the sequence-sequence kernel returns the diagonal on two equal residue strings of
   every length, for every scoring scheme that passes a finite check, and kalign's five built-in schemes (as
   the built code has them) pass it; so do the sequence-profile and the profile-profile kernel on groups
   of copies, whose profiles are followed through make_profile, set_gap_penalties and update_profile; hence
   the WHOLE progressive run of the model (do_align with its choice of kernel and mirroring, every task list,
   any number of copies) makes only diagonal, all-match merges and returns the input rows without a gap.
   NOT a theorem: that the binary32 run takes the same decisions as the exact one (rounding).  That is decided
   on every run by the bit-exact correspondence of the executable binary32 model with the implementation
   (every merge: raw path and every meetup maximum) and by end-to-end runs over residue compositions, lengths,
   copy numbers, types and thread counts (DESIGN C08). *)
From Coq Require Import ZArith List Bool Lia.
From KV Require Import FP Params Weave DupProofs Kernels Pipeline ExactDiag ExactDiagInst ExactDiagProf ExactDiagRun ExactDiagBuiltin.
Import ListNotations.

(* the raw path 1, 2, .., L against a side of length L is expanded by add_gap_info_to_path_n to L match
   operations (no gap op, no terminal flag) *)
Theorem C08_diagonal_path_expands_to_matches : forall L, (1 <= L)%nat ->
  add_gap_info (Z.of_nat L) (diag L) = Some (repeat 0%Z L).
Proof. exact diagonal_path_all_match. Qed.
Print Assumptions C08_diagonal_path_expands_to_matches.

(* whatever the guide tree and however many sequences: if every merge is all-match, the final rows are the
   input sequences themselves, without a single gap *)
Theorem C08_all_match_merges_insert_no_gaps : forall seqs (tasks : list (nat * nat * nat * list Z)),
  Forall (fun t => all_match (snd t)) tasks ->
  final_rows (run_merges (map (@length Z) seqs) tasks) seqs = seqs.
Proof. exact all_match_run_no_gaps. Qed.
Print Assumptions C08_all_match_merges_insert_no_gaps.

(* both together: diagonal raw paths at every merge give the input back *)
Theorem C08_diagonal_merges_give_no_gaps : forall (s : list Z) copies (tree : list (nat * nat * nat)),
  (1 <= length s)%nat ->
  let tasks := map (fun t => (t, repeat 0%Z (length s))) tree in
  (forall t, In t tasks -> add_gap_info (Z.of_nat (length s)) (diag (length s)) = Some (snd t)) /\
  final_rows (run_merges (map (@length Z) (repeat s copies)) tasks) (repeat s copies) = repeat s copies.
Proof.
  intros s copies tree H tasks. split.
  - intros t Ht. unfold tasks in Ht. apply in_map_iff in Ht as (x & <- & _). simpl. apply diagonal_path_all_match. exact H.
  - apply all_match_run_no_gaps. apply Forall_forall. intros t Ht. unfold tasks in Ht.
    apply in_map_iff in Ht as (x & <- & _). simpl. apply all_match_zeros.
Qed.
Print Assumptions C08_diagonal_merges_give_no_gaps.

(* Instances by evaluation (tests, not the unbounded claim): the binary32 model returns the diagonal for
   three copies of an all-ambiguity-code sequence under the 'dna' parameters, through the sequence-sequence
   and the sequence-profile kernel *)
Example C08_instance :
  let f := fun z => f32_of_Z z in
  let P := mkNP alg_f32 (f 8%Z) (f 6%Z) (f 0%Z) (map (fun i => map (fun j => if (i =? j)%nat then f 5%Z else f (-4)%Z) (seq 0 23)) (seq 0 23)) in
  let s := [4; 4; 4; 4; 4; 4; 4]%Z in
  option_map (map (fun r => snd (fst (fst r)))) (progressive alg_f32 P [s; s; s] [(0, 1, 3); (3, 2, 4)]%nat) =
  Some [diag 7; diag 7].
Proof. vm_compute. reflexivity. Qed.

(* One square sub-problem of the Hirschberg recursion, for ANY cost record (sequence or profile rows/columns): when
   the rows pair with the columns (dpair), a match never gains more than the two potentials and gains exactly their
   mean on a pair, and every gap step loses at least gam against the potential of what it skips, then the meetup of
   the forward and the backward pass picks transition 1 (match -> match) at the middle column.  The tie-break is any
   non-negative function that stays below gam at that column. *)
Theorem C08_meetup_of_a_square_picks_the_diagonal :
  forall (tb : Z -> Z -> Z -> Z), (forall a b i, (0 <= tb a b i)%Z) ->
  forall (R C : Type) (K : costs (alg_X tb) R C) (pR : R -> Z) (pC : C -> Z) (eR : R -> Z) (gam : Z) (dpair : R -> C -> Prop),
  (0 < gam)%Z ->
  (forall r c x u, ub2 x u -> ub2 (k_match (alg_X tb) R C K r c x) (u + pR r + pC c)) ->
  (forall r c v, dpair r c -> k_match (alg_X tb) R C K r c (Some v) = Some (v + eR r)%Z /\ (2 * eR r = pR r + pC c)%Z) ->
  (forall c, exists g1 g2 g3, k_ga_ext (alg_X tb) R C K c = Some g1 /\ k_ga_open (alg_X tb) R C K c = Some g2 /\ k_ga_text (alg_X tb) R C K c = Some g3 /\
     (2 * g1 <= pC c - 2 * gam)%Z /\ (2 * g2 <= pC c - 2 * gam)%Z /\ (2 * g3 <= pC c - 2 * gam)%Z) ->
  (forall r, exists g1 g2 g3, k_gb_ext (alg_X tb) R C K r = Some g1 /\ k_gb_open (alg_X tb) R C K r = Some g2 /\ k_gb_text (alg_X tb) R C K r = Some g3 /\
     (2 * g1 <= pR r - 2 * gam)%Z /\ (2 * g2 <= pR r - 2 * gam)%Z /\ (2 * g3 <= pR r - 2 * gam)%Z) ->
  (forall c, exists g, k_ga_to_a (alg_X tb) R C K c = Some g /\ (g <= 0)%Z) ->
  (forall r, exists g, k_gb_to_a (alg_X tb) R C K r = Some g /\ (g <= 0)%Z) ->
  forall M : mcosts (alg_X tb),
  (forall i, exists g, m_a_ga (alg_X tb) M i = Some g /\ (g <= 0)%Z) -> (exists g, m_a_gb (alg_X tb) M = Some g /\ (g <= 0)%Z) ->
  (forall i, exists g, m_ga_a (alg_X tb) M i = Some g /\ (g <= 0)%Z) -> (exists g, m_gb_gb_int (alg_X tb) M = Some g /\ (g <= 0)%Z) ->
  (exists g, m_gb_gb_term (alg_X tb) M = Some g /\ (g <= 0)%Z) -> (exists g, m_gb_a (alg_X tb) M = Some g /\ (g <= 0)%Z) ->
  forall (RF RB : list R) (CF CB : list C) (fi li fi' li' sz el : bool) (sb eb i0 : Z),
  (length RF + length RB = length CF)%nat -> (1 <= length RB)%nat -> map pC CB = map pC (rev CF) ->
  (forall t r c, nth_error RF t = Some r -> nth_error CF t = Some c -> dpair r c) ->
  (forall t r c, nth_error RB t = Some r -> nth_error CB t = Some c -> dpair r c) ->
  (tb sb eb (i0 + Z.of_nat (length RF)) < gam)%Z ->
  exists E, meet_scan (alg_X tb) M sz el sb eb i0 (pass (alg_X tb) R C K fi li (live tb) RF CF)
                      (rev (pass (alg_X tb) R C K fi' li' (live tb) RB CB)) (None, (-1)%Z, (-1)%Z)
            = (Some E, 1%Z, (i0 + Z.of_nat (length RF))%Z).
Proof. exact square_meet. Qed.
Print Assumptions C08_meetup_of_a_square_picks_the_diagonal.

(* the controller: a kernel whose meetup finds the middle of every square sub-problem writes the diagonal path *)
Theorem C08_controller_writes_the_diagonal :
  forall (tb : Z -> Z -> Z -> Z) (Kn : kernel (alg_X tb)) (n : Z),
  (forall o e, (0 <= o)%Z -> (o < e)%Z -> (e <= n)%Z -> let mid := ((e - o) / 2 + o)%Z in
     exists v, k_meetup (alg_X tb) Kn mid o e (k_forward (alg_X tb) Kn o mid o e (live0 (alg_X tb)))
                        (k_backward (alg_X tb) Kn mid e o e (live0 (alg_X tb))) = (v, 1%Z, mid)) ->
  (0 <= n)%Z -> raw_path (alg_X tb) Kn n n = Some (diag (Z.to_nat n)).
Proof. intros tb Kn n H Hn. rewrite <- seq1_diag. apply raw_path_diag; assumption. Qed.
Print Assumptions C08_controller_writes_the_diagonal.

(* the sequence-sequence kernel (accessors of aln_seqseq.c) on two equal strings, any length, any scheme that passes
   the finite check [scheme_ok]; [unit] is what 1/2000 measures in the integer scale *)
Theorem C08_seqseq_kernel_returns_the_diagonal_on_equal_strings :
  forall (unit : Z), (0 <= unit)%Z -> forall (S : list (list Z)) (gpo gpe tgpe gam : Z) (dim : nat) (mx : Z),
  scheme_ok unit S gpo gpe tgpe gam dim mx = true ->
  forall x : list Z, Forall (fun c => (Z.to_nat c <? dim)%nat = true) x ->
  raw_path (AX unit) (ss_kernel (AX unit) (PX unit S gpo gpe tgpe) x x) (Z.of_nat (length x)) (Z.of_nat (length x)) = Some (diag (length x)).
Proof. exact ss_identical_diagonal. Qed.
Print Assumptions C08_seqseq_kernel_returns_the_diagonal_on_equal_strings.

(* kalign's five built-in schemes, read from the built code on this run (Generated/Tables.v) and taken at the real
   values of their binary32 entries, all pass the check (this is a finite computation, re-done on every run) ... *)
Theorem C08_builtin_schemes_pass_the_check :
  forallb default_scheme_ok [PS_DNA; PS_DNA_INTERNAL; PS_RNA; PS_PROTEIN; PS_GON] = true.
Proof. exact default_schemes_ok. Qed.
Print Assumptions C08_builtin_schemes_pass_the_check.

(* ... where "taken at the real values" is itself checked: on every entry of the five schemes the integer the decoder
   returns is 2000 * 2^40 times the value (-1)^s * m * 2^e that Flocq reads from the same binary32 bit pattern *)
Theorem C08_builtin_parameters_are_read_at_their_real_values :
  forallb (fun s => match pset_defaults s with Some p => params_decode_like_flocq p | None => false end)
          [PS_DNA; PS_DNA_INTERNAL; PS_RNA; PS_PROTEIN; PS_GON] = true.
Proof.
  generalize builtin_entries_accepted. apply forallb_impl. intros s. destruct (pset_defaults s) as [p|]; [|trivial].
  unfold params_accepted, params_decode_like_flocq. rewrite !andb_true_iff. intros [[[H1 H2] H3] H4].
  repeat split; try (apply exact_of_bits_correct; assumption).
  revert H1. apply forallb_impl. intros row. apply forallb_impl, exact_of_bits_correct.
Qed.
Print Assumptions C08_builtin_parameters_are_read_at_their_real_values.

(* ... hence: under each of them, two equal strings of any length over the residue codes of that alphabet are
   aligned on the diagonal, which add_gap_info expands to matches only *)
Theorem C08_equal_pair_has_no_gap_under_builtin_schemes : forall s m gpo gpe tgpe x,
  scheme_of s = Some (m, gpo, gpe, tgpe) ->
  Forall (fun c => (Z.to_nat c <? dim_of s)%nat = true) x -> (1 <= length x)%nat ->
  raw_path (AX unitX) (ss_kernel (AX unitX) (PX unitX m gpo gpe tgpe) x x) (Z.of_nat (length x)) (Z.of_nat (length x)) = Some (diag (length x)) /\
  add_gap_info (Z.of_nat (length x)) (diag (length x)) = Some (repeat 0%Z (length x)).
Proof.
  intros s m gpo gpe tgpe x Hs Hx Hl. split.
  - exact (ss_identical_diagonal unitX unitX_pos m gpo gpe tgpe _ _ _ (scheme_of_ok s m gpo gpe tgpe Hs) x Hx).
  - apply diagonal_path_all_match. exact Hl.
Qed.
Print Assumptions C08_equal_pair_has_no_gap_under_builtin_schemes.

(* the premise is met: every built-in scheme decodes *)
Example C08_builtin_schemes_decode :
  forallb (fun s => match scheme_of s with Some _ => true | None => false end) [PS_DNA; PS_DNA_INTERNAL; PS_RNA; PS_PROTEIN; PS_GON] = true.
Proof.
  generalize default_schemes_ok. apply forallb_impl. intros s. unfold default_scheme_ok.
  destruct (scheme_of s); [reflexivity|discriminate].
Qed.

(* a group of k1 copies against a group of k2 copies (profile-profile kernel); profK describes the entries of the two
   prepared profiles that the kernel reads *)
Theorem C08_profile_profile_kernel_returns_the_diagonal_on_groups_of_copies :
  forall (unit : Z), (0 <= unit)%Z -> forall (S : list (list Z)) (gpo gpe tgpe gam : Z) (dim : nat) (mx : Z),
  scheme_ok unit S gpo gpe tgpe gam dim mx = true -> (dim <= 23)%nat ->
  forall x : list Z, Forall (fun c => inr dim c = true) x ->
  forall (k1 k2 : Z) (p1 p2 : list (column (AX unit))), (1 <= k1)%Z -> (1 <= k2)%Z ->
  profK unit S gpo gpe tgpe x k1 k2 p1 -> profK unit S gpo gpe tgpe x k2 k1 p2 ->
  raw_path (AX unit) (pp_kernel (AX unit) p1 p2) (Z.of_nat (length x)) (Z.of_nat (length x)) = Some (diag (length x)).
Proof. exact pp_identical_diagonal. Qed.
Print Assumptions C08_profile_profile_kernel_returns_the_diagonal_on_groups_of_copies.

(* a group of k copies (rows) against one more copy (columns): sequence-profile kernel *)
Theorem C08_sequence_profile_kernel_returns_the_diagonal_on_copies :
  forall (unit : Z), (0 <= unit)%Z -> forall (S : list (list Z)) (gpo gpe tgpe gam : Z) (dim : nat) (mx : Z),
  scheme_ok unit S gpo gpe tgpe gam dim mx = true -> (dim <= 23)%nat ->
  forall x : list Z, Forall (fun c => inr dim c = true) x ->
  forall (k : Z), (1 <= k)%Z -> forall p1 : list (column (AX unit)), profK unit S gpo gpe tgpe x k 1 p1 ->
  raw_path (AX unit) (sp_kernel (AX unit) (PX unit S gpo gpe tgpe) p1 x k) (Z.of_nat (length x)) (Z.of_nat (length x)) = Some (diag (length x)).
Proof. exact sp_identical_diagonal. Qed.
Print Assumptions C08_sequence_profile_kernel_returns_the_diagonal_on_copies.

(* the profile of a single sequence is the profile of one copy; preparing and adding profiles keeps the description *)
Theorem C08_profiles_of_copies :
  forall (unit : Z) (S : list (list Z)) (gpo gpe tgpe : Z) (dim : nat) (x : list Z),
  (dim <= 23)%nat -> Forall (fun c => inr dim c = true) x -> (1 <= length x)%nat ->
  rawK unit S gpo gpe tgpe x 1 (make_profile (AX unit) (PX unit S gpo gpe tgpe) x) /\
  (forall k n p, rawK unit S gpo gpe tgpe x k p ->
     profK unit S gpo gpe tgpe x k n (set_gap_penalties (AX unit) p n) /\ rawK unit S gpo gpe tgpe x k (set_gap_penalties (AX unit) p n)) /\
  (forall k1 k2 sa sb pa pb, rawK unit S gpo gpe tgpe x k1 pa -> rawK unit S gpo gpe tgpe x k2 pb ->
     rawK unit S gpo gpe tgpe x (k1 + k2) (update_profile (AX unit) (PX unit S gpo gpe tgpe) (repeat 0%Z (length x)) pa pb sa sb)).
Proof.
  intros unit S gpo gpe tgpe dim x Hd Hx HL. split; [exact (make_profile_raw unit S gpo gpe tgpe dim Hd x Hx HL)|]. split.
  - intros k n p Hp. eapply set_gap_penalties_prof; eassumption.
  - intros k1 k2 sa sb pa pb Ha Hb. eapply update_profile_raw; eassumption.
Qed.
Print Assumptions C08_profiles_of_copies.

(* THE RUN: n copies of x, any task list (guide tree), any scheme passing the check: whenever the model's progressive
   alignment returns, every merge has the diagonal raw path and all-match operations *)
Theorem C08_every_merge_of_copies_is_diagonal :
  forall (unit : Z), (0 <= unit)%Z -> forall (S : list (list Z)) (gpo gpe tgpe gam : Z) (dim : nat) (mx : Z),
  scheme_ok unit S gpo gpe tgpe gam dim mx = true -> (dim <= 23)%nat ->
  forall x : list Z, Forall (fun c => inr dim c = true) x -> (1 <= length x)%nat ->
  forall n tasks out, progressive (AX unit) (PX unit S gpo gpe tgpe) (repeat x n) tasks = Some out ->
  Forall (diag_entry unit x) out.
Proof.
  intros unit Hu S gpo gpe tgpe gam dim mx Hok Hd x Hx HL n tasks out. unfold progressive.
  apply (run_tasks_copies unit Hu S gpo gpe tgpe gam dim mx Hok Hd x Hx HL). intros i g Hi.
  apply (leaf_groups_nth unit _ _ _ _ x) in Hi as (_ & ->). rewrite nth_repeat. exists 1%Z. split; [lia|apply leaf_grpK].
Qed.
Print Assumptions C08_every_merge_of_copies_is_diagonal.

(* ... and with the weave layer: under each built-in scheme the rows that come out are the n input copies, without a gap *)
Theorem C08_identical_inputs_come_out_without_gaps_exact : forall s m gpo gpe tgpe x n tasks out,
  scheme_of s = Some (m, gpo, gpe, tgpe) ->
  Forall (fun c => (Z.to_nat c <? dim_of s)%nat = true) x -> (1 <= length x)%nat ->
  progressive (AX unitX) (PX unitX m gpo gpe tgpe) (repeat x n) tasks = Some out ->
  let merges := map (fun e => (fst (fst (fst e)), snd (fst e))) out in       (* (a, b, c, operations) of every merge *)
  Forall (fun t => snd t = repeat 0%Z (length x)) merges /\
  final_rows (run_merges (map (@length Z) (repeat x n)) merges) (repeat x n) = repeat x n.
Proof.
  intros s m gpo gpe tgpe x n tasks out Hs Hx HL Hr merges.
  pose proof (C08_every_merge_of_copies_is_diagonal unitX unitX_pos m gpo gpe tgpe _ _ _ (scheme_of_ok s m gpo gpe tgpe Hs) (dim_of_le23 s) x Hx HL n tasks out Hr) as D.
  assert (A : Forall (fun t => snd t = repeat 0%Z (length x)) merges).
  { unfold merges. apply Forall_forall. intros t Ht. apply in_map_iff in Ht as (e & <- & He). rewrite Forall_forall in D. destruct (D e He) as (_ & E). exact E. }
  split; [exact A|]. apply all_match_run_no_gaps. eapply Forall_impl; [|exact A]. intros t Et. rewrite Et. apply all_match_zeros.
Qed.
Print Assumptions C08_identical_inputs_come_out_without_gaps_exact.

(* the run does return: four copies with ambiguity codes, merged by the sequence-sequence kernel twice and then by the
   profile-profile kernel; and three copies merged by the sequence-sequence and then the sequence-profile kernel (both
   orders of the operands) - evaluated in exact arithmetic under the built-in nucleotide scheme *)
Example C08_exact_run_returns :
  match scheme_of PS_DNA with
  | Some (m, gpo, gpe, tgpe) =>
    let x := [0; 1; 4; 2; 3; 3; 4]%Z in
    let ops := fun r => option_map (map (fun e => (snd (fst (fst e)), snd (fst e)))) r in
    ops (progressive (AX unitX) (PX unitX m gpo gpe tgpe) [x; x; x; x] [(0, 1, 4); (2, 3, 5); (4, 5, 6)]%nat)
      = Some [(diag 7, repeat 0%Z 7); (diag 7, repeat 0%Z 7); (diag 7, repeat 0%Z 7)] /\
    ops (progressive (AX unitX) (PX unitX m gpo gpe tgpe) [x; x; x; x] [(0, 1, 4); (4, 2, 5); (3, 5, 6)]%nat)
      = Some [(diag 7, repeat 0%Z 7); (diag 7, repeat 0%Z 7); (diag 7, repeat 0%Z 7)]
  | None => False
  end.
Proof. exact exact_runs_return. Qed.
