(* C08 in exact arithmetic, the whole progressive run: groups of copies of one string keep an explicit profile through
   make_profile / set_gap_penalties / update_profile, every merge of two such groups (whichever kernel do_align picks,
   mirrored or not) returns the diagonal path and all-match operations, for every task list. *)
From Coq Require Import ZArith List Bool Lia.
From KV Require Import ListFacts Weave WeaveProofs Kernels Pipeline DupProofs ExactDiag ExactDiagInst ExactDiagProf CladeTasks.
Import ListNotations.
Local Open Scope Z_scope.

Lemma nth_zip {X Y W} (F : X -> Y -> W) a b j d d1 d2 : length a = length b -> (j < length a)%nat ->
  nth j (map (fun ab => F (fst ab) (snd ab)) (combine a b)) d = F (nth j a d1) (nth j b d2).
Proof. intros L H. rewrite (nth_map_in _ _ _ (d1, d2)) by (rewrite combine_length; lia). rewrite combine_nth by exact L. reflexivity. Qed.

Section Cols.
Variable unit : Z.
Notation AXu := (AX unit).
Notation colX := (column AXu).

Lemma pset_length : forall (c : colX) i v, length (pset AXu c i v) = length c.
Proof. induction c as [|y c IH]; intros [|i] v; cbn [pset length]; try reflexivity. rewrite IH. reflexivity. Qed.
Lemma pget_pset : forall (c : colX) i j v, pget AXu (pset AXu c i v) j = if (j =? i)%nat && (i <? length c)%nat then v else pget AXu c j.
Proof.
  unfold pget. induction c as [|y c IH]; intros [|i] [|j] v; cbn [pset nth length]; try reflexivity; [destruct (_ =? _)%nat; reflexivity|].
  rewrite IH. reflexivity.
Qed.

Lemma pget_pset_other (c : colX) i j v : i <> j -> pget AXu (pset AXu c i v) j = pget AXu c j.
Proof. intros H. rewrite pget_pset. destruct (Nat.eqb_spec j i); [congruence|reflexivity]. Qed.

Lemma pget_col_add (a b : colX) j : length a = length b -> (j < length a)%nat ->
  pget AXu (col_add AXu a b) j = xadd (pget AXu a j) (pget AXu b j).
Proof.
  intros L H. apply (nth_zip xadd); assumption.
Qed.
Lemma col_add_length (a b : colX) : length a = length b -> length (col_add AXu a b) = length a.
Proof. intros L. unfold col_add. rewrite map_length, combine_length. lia. Qed.

Lemma leaf_groups_nth (codes : list (list Z)) m i g d :
  nth i (map (fun c => Some (leaf_group AXu c)) codes ++ repeat None m) None = Some g -> (i < length codes)%nat /\ g = leaf_group AXu (nth i codes d).
Proof.
  intros H. destruct (Nat.ltb_spec i (length codes)) as [Lt|Ge].
  - rewrite app_nth1 in H by (rewrite map_length; exact Lt).
    rewrite (nth_map_in _ _ _ d) in H by exact Lt. inversion H. auto.
  - rewrite app_nth2, nth_repeat in H by (rewrite map_length; exact Ge). discriminate.
Qed.
End Cols.

Section Run.
Variable unit : Z.
Hypothesis unit_pos : 0 <= unit.
Variable S : list (list Z).
Variables gpo gpe tgpe gam : Z.
Variable dim : nat.
Variable mx : Z.
Hypothesis Hok : scheme_ok unit S gpo gpe tgpe gam dim mx = true.
Hypothesis Hdim : (dim <= 23)%nat.
Variable x : list Z.
Hypothesis Hx : Forall (fun c => inr dim c = true) x.
Hypothesis HL : (1 <= length x)%nat.
Notation AXu := (AX unit).
Notation PXu := (PX unit S gpo gpe tgpe).
Notation colX := (column AXu).
Notation L := (length x).
Notation resKu := (resK unit S).
Notation gapsKu := (gapsK unit gpo gpe tgpe).
Notation profKu := (profK unit S gpo gpe tgpe x).

(* the unprepared profile of k copies: what make_profile / update_profile leave in the entries that are read later *)
Definition rawcol (k : Z) (col : colX) : Prop :=
  length col = 64%nat /\ pget AXu col 55 = Some (- (k * gpo)) /\ pget AXu col 56 = Some (- (k * gpe)) /\ pget AXu col 57 = Some (- (k * tgpe)).
Definition rawK (k : Z) (p : list colX) : Prop :=
  length p = (L + 2)%nat /\ (forall j, (j < L + 2)%nat -> rawcol k (nth j p [])) /\
  (forall j, (j < L)%nat -> resKu k (Z.to_nat (nth j x 0%Z)) (nth (Datatypes.S j) p [])).

Lemma code_lt23 j : (j < L)%nat -> (Z.to_nat (nth j x 0%Z) < 23)%nat.
Proof. intros H. rewrite Forall_forall in Hx. specialize (Hx (nth j x 0) (nth_In _ _ H)). unfold inr in Hx. apply Nat.ltb_lt in Hx. lia. Qed.

Lemma border_raw : rawcol 1 (border_col AXu PXu).
Proof.
  unfold rawcol, border_col. rewrite !pget_pset, !pset_length. change (length (zero_col AXu)) with 64%nat. cbn [Nat.eqb Nat.ltb Nat.leb andb].
  repeat split; apply (f_equal (@Some Z)); lia.
Qed.

Lemma residue_raw c : (Z.to_nat c < 23)%nat -> rawcol 1 (residue_col AXu PXu c) /\ resKu 1 (Z.to_nat c) (residue_col AXu PXu c).
Proof.
  intros Hc. unfold residue_col.
  set (counts := pset AXu (repeat (zero AXu) 32) (Z.to_nat c) (add AXu (zero AXu) (of_int AXu 1))).
  set (scores := map (fun j => sub_score AXu PXu c (Z.of_nat j)) (seq 0 23)).
  assert (Lc : length counts = 32%nat) by (unfold counts; rewrite pset_length; reflexivity).
  assert (Ls : length scores = 23%nat) by (unfold scores; rewrite map_length; reflexivity).
  split.
  - unfold rawcol. rewrite !app_length, Lc, Ls. split; [reflexivity|]. unfold pget.
    repeat split; (rewrite app_nth2 by lia; rewrite Lc, app_nth2 by (rewrite Ls; lia); rewrite Ls; apply (f_equal (@Some Z)); lia).
  - split; intros j Hj.
    + unfold pget. rewrite app_nth1 by lia. fold (pget AXu counts j). unfold counts. rewrite pget_pset, repeat_length.
      replace (Z.to_nat c <? 32)%nat with true by (symmetry; apply Nat.ltb_lt; lia). rewrite andb_true_r.
      destruct (j =? Z.to_nat c)%nat; [reflexivity|]. unfold pget. rewrite nth_repeat. reflexivity.
    + unfold pget. rewrite app_nth2 by lia. rewrite Lc. replace (32 + j - 32)%nat with j by lia. rewrite app_nth1 by lia.
      unfold scores. rewrite (nth_map_in _ _ _ 0%nat), seq_nth by (rewrite ?seq_length; lia). cbn [Nat.add].
      rewrite sub_score_X. rewrite Nat2Z.id. f_equal. lia.
Qed.

Lemma make_profile_raw : rawK 1 (make_profile AXu PXu x).
Proof.
  unfold make_profile, rawK. split; [cbn [length]; rewrite app_length, map_length; cbn [length]; lia|].
  assert (Hn : forall j, (j < L)%nat -> nth (Datatypes.S j) (border_col AXu PXu :: map (residue_col AXu PXu) x ++ [border_col AXu PXu]) [] = residue_col AXu PXu (nth j x 0)).
  { intros j Hj. cbn [nth]. rewrite app_nth1 by (rewrite map_length; exact Hj).
    apply nth_map_in, Hj. }
  split.
  - intros j Hj. destruct j as [|j]; [apply border_raw|]. destruct (Nat.ltb_spec j L) as [Lt|Ge].
    + rewrite Hn by exact Lt. apply residue_raw. apply code_lt23. exact Lt.
    + cbn [nth]. rewrite app_nth2 by (rewrite map_length; exact Ge). rewrite map_length. replace (j - L)%nat with 0%nat by lia. apply border_raw.
  - intros j Hj. rewrite Hn by exact Hj. apply residue_raw. apply code_lt23. exact Hj.
Qed.

Definition sgp_col (n : Z) (c : colX) : colX :=
  pset AXu (pset AXu (pset AXu c 27 (mul AXu (pget AXu c 55) (of_int AXu n))) 28 (mul AXu (pget AXu c 56) (of_int AXu n))) 29 (mul AXu (pget AXu c 57) (of_int AXu n)).
Lemma sgp_nth p n j : nth j (set_gap_penalties AXu p n) [] = sgp_col n (nth j p []).
Proof. unfold set_gap_penalties. change (@nil (T AXu)) with (sgp_col n []) at 1. apply (map_nth (sgp_col n)). Qed.

Lemma sgp_col_facts k n c : rawcol k c -> rawcol k (sgp_col n c) /\ gapsKu k n (sgp_col n c) /\ (forall cd, resKu k cd c -> resKu k cd (sgp_col n c)).
Proof.
  intros (L64 & A55 & A56 & A57). unfold sgp_col. rewrite A55, A56, A57. cbn [mul of_int AX alg_X xmul]. split; [|split].
  - unfold rawcol. rewrite !pget_pset, !pset_length. cbn [Nat.eqb andb]. auto.
  - unfold gapsK. rewrite !pget_pset, !pset_length, L64. cbn [Nat.eqb Nat.ltb Nat.leb andb]. auto.
  - intros cd (Q1 & Q2). split; intros j Hj; rewrite !pget_pset_other by lia; [apply Q1|apply Q2]; exact Hj.
Qed.

Lemma set_gap_penalties_prof k n p : rawK k p -> profKu k n (set_gap_penalties AXu p n) /\ rawK k (set_gap_penalties AXu p n).
Proof.
  intros (Lp & Rc & Rs).
  split; (split; [unfold set_gap_penalties; rewrite map_length; exact Lp|]; split; intros j Hj; rewrite sgp_nth;
          [apply sgp_col_facts, Rc, Hj|apply (sgp_col_facts k n _ (Rc (Datatypes.S j) ltac:(lia))), Rs, Hj]).
Qed.

Lemma update_cols_all_match sa sb : forall n (pa pb : list colX), length pa = Datatypes.S n -> length pb = Datatypes.S n ->
  update_cols AXu PXu (repeat 0 n) pa pb sa sb = map (fun ab => col_add AXu (fst ab) (snd ab)) (combine pa pb).
Proof.
  induction n as [|n IH]; intros pa pb La Lb.
  - destruct pa as [|a [|? ?]]; try discriminate. destruct pb as [|b [|? ?]]; try discriminate. reflexivity.
  - destruct pa as [|a pa]; [discriminate|]. destruct pb as [|b pb]; [discriminate|]. cbn [repeat update_cols Z.eqb combine map fst snd].
    f_equal. apply IH; cbn [length] in *; lia.
Qed.

Lemma update_profile_all_match sa sb (pa pb : list colX) : length pa = (L + 2)%nat -> length pb = (L + 2)%nat ->
  update_profile AXu PXu (repeat 0 L) pa pb sa sb = map (fun ab => col_add AXu (fst ab) (snd ab)) (combine pa pb).
Proof.
  intros La Lb. destruct pa as [|a pa]; [cbn [length] in La; lia|]. destruct pb as [|b pb]; [cbn [length] in Lb; lia|]. cbn [update_profile combine map fst snd].
  f_equal. apply update_cols_all_match; cbn [length] in *; lia.
Qed.

Lemma col_add_raw k1 k2 a b : rawcol k1 a -> rawcol k2 b -> rawcol (k1 + k2) (col_add AXu a b) /\
  (forall cd, resKu k1 cd a -> resKu k2 cd b -> resKu (k1 + k2) cd (col_add AXu a b)).
Proof.
  intros (La & A5 & A6 & A7) (Lb & B5 & B6 & B7). assert (Le : length a = length b) by congruence. split.
  - unfold rawcol. rewrite col_add_length by exact Le. split; [exact La|].
    rewrite !pget_col_add by (try exact Le; lia). rewrite A5, A6, A7, B5, B6, B7. cbn [xadd].
    repeat split; apply (f_equal (@Some Z)); ring.
  - intros cd (P1 & P2) (Q1 & Q2). split; intros j Hj.
    + rewrite pget_col_add by (try exact Le; lia). rewrite P1, Q1 by exact Hj. cbn [xadd]. apply (f_equal (@Some Z)). destruct (j =? cd)%nat; ring.
    + rewrite pget_col_add by (try exact Le; lia). rewrite P2, Q2 by exact Hj. cbn [xadd]. apply (f_equal (@Some Z)). ring.
Qed.

Lemma update_profile_raw k1 k2 sa sb pa pb : rawK k1 pa -> rawK k2 pb -> rawK (k1 + k2) (update_profile AXu PXu (repeat 0 L) pa pb sa sb).
Proof.
  intros (La & Ca & Ra) (Lb & Cb & Rb). rewrite update_profile_all_match by assumption.
  split; [rewrite map_length, combine_length; lia|]. split.
  - intros j Hj. rewrite (nth_zip (col_add AXu) pa pb _ [] [] []) by lia. apply col_add_raw; [apply Ca|apply Cb]; exact Hj.
  - intros j Hj. rewrite (nth_zip (col_add AXu) pa pb _ [] [] []) by lia. apply (col_add_raw k1 k2 _ _ (Ca (Datatypes.S j) ltac:(lia)) (Cb (Datatypes.S j) ltac:(lia))); [apply Ra|apply Rb]; exact Hj.
Qed.

Lemma diag_S j : diag (Datatypes.S j) = diag j ++ [Z.of_nat j + 1].
Proof. unfold diag. rewrite seq_S, map_app. reflexivity. Qed.
Lemma diag_length j : length (diag j) = j. Proof. unfold diag. rewrite map_length, seq_length. reflexivity. Qed.

Lemma mirror_fill_diag : forall m j,
  mirror_fill (Z.of_nat j + 1) (map (fun i => Z.of_nat i + 1) (seq j m)) (diag j ++ repeat (-1) m) = diag (j + m).
Proof.
  induction m as [|m IH]; intros j; [cbn [seq map mirror_fill repeat]; rewrite app_nil_r, Nat.add_0_r; reflexivity|].
  cbn [seq map mirror_fill repeat]. destruct (Z.eqb_spec (Z.of_nat j + 1) (-1)) as [E|_]; [lia|].
  replace (Z.to_nat (Z.of_nat j + 1 - 1)) with (length (diag j)) by (rewrite diag_length; lia).
  rewrite set_nth_app. replace (Z.of_nat j + 1 + 1) with (Z.of_nat (Datatypes.S j) + 1) by lia.
  replace (diag j ++ (Z.of_nat j + 1) :: repeat (-1) m) with (diag (Datatypes.S j) ++ repeat (-1) m) by (rewrite diag_S, <- app_assoc; reflexivity).
  rewrite IH. f_equal. lia.
Qed.
Lemma mirror_diag n : mirror_path (Z.of_nat n) (diag n) = diag n.
Proof. unfold mirror_path. rewrite Nat2Z.id. apply (mirror_fill_diag n 0). Qed.

Definition grpK (k : Z) (g : group AXu) : Prop :=
  g_nsip AXu g = k /\ g_len AXu g = Z.of_nat L /\
  ((g_codes AXu g = Some x /\ k = 1) \/ (g_codes AXu g = None /\ rawK k (g_prof AXu g))).

Lemma prepared_raw k g n : grpK k g -> rawK k (prepared_profile AXu PXu g n).
Proof.
  intros (_ & _ & [(Ec & ->)|(Ec & Rw)]); unfold prepared_profile; rewrite Ec; [apply make_profile_raw|apply set_gap_penalties_prof; exact Rw].
Qed.

Lemma do_align_copies k1 k2 ga gb is_last : 1 <= k1 -> 1 <= k2 -> grpK k1 ga -> grpK k2 gb ->
  exists mo, do_align AXu PXu ga gb is_last = Some mo /\ mo_raw AXu mo = diag L /\ mo_ops AXu mo = repeat 0 L /\
             (is_last = false -> grpK (k1 + k2) (mo_group AXu mo)).
Proof.
  intros H1 H2 Ga Gb. pose proof (prepared_raw k1 ga (g_nsip AXu gb) Ga) as Ra. pose proof (prepared_raw k2 gb (g_nsip AXu ga) Gb) as Rb.
  destruct Ga as (Na & La & Ca). destruct Gb as (Nb & Lb & Cb).
  assert (Hraw : align_pair AXu PXu (mkGroup AXu (g_codes AXu ga) (prepared_profile AXu PXu ga (g_nsip AXu gb)) (g_nsip AXu ga) (g_len AXu ga))
                                    (mkGroup AXu (g_codes AXu gb) (prepared_profile AXu PXu gb (g_nsip AXu ga)) (g_nsip AXu gb) (g_len AXu gb)) = Some (diag L)).
  { unfold align_pair, kernel_of. cbn [g_codes g_len g_prof g_nsip]. rewrite La, Lb, Z.ltb_irrefl.
    destruct Ca as [(Eca & K1)|(Eca & Rwa)]; destruct Cb as [(Ecb & K2)|(Ecb & Rwb)]; rewrite Eca, Ecb.
    - (* two single copies: sequence-sequence *)
      rewrite (ss_identical_diagonal unit unit_pos S gpo gpe tgpe gam dim mx Hok x Hx). cbn [option_map]. rewrite mirror_diag. reflexivity.
    - (* a copy and a group: sequence-profile, mirrored *)
      unfold prepared_profile at 1. rewrite Ecb, Na, Nb, K1.
      rewrite (sp_identical_diagonal unit unit_pos S gpo gpe tgpe gam dim mx Hok Hdim x Hx k2 H2 _ (proj1 (set_gap_penalties_prof k2 1 _ Rwb))).
      cbn [option_map]. rewrite mirror_diag. reflexivity.
    - (* a group and a copy: sequence-profile *)
      unfold prepared_profile at 1. rewrite Eca, Na, Nb, K2.
      rewrite (sp_identical_diagonal unit unit_pos S gpo gpe tgpe gam dim mx Hok Hdim x Hx k1 H1 _ (proj1 (set_gap_penalties_prof k1 1 _ Rwa))). reflexivity.
    - (* two groups: profile-profile, mirrored *)
      unfold prepared_profile. rewrite Eca, Ecb, Na, Nb.
      rewrite (pp_identical_diagonal unit unit_pos S gpo gpe tgpe gam dim mx Hok Hdim x Hx k2 k1 _ _ H2 H1
                 (proj1 (set_gap_penalties_prof k2 k1 _ Rwb)) (proj1 (set_gap_penalties_prof k1 k2 _ Rwa))).
      cbn [option_map]. rewrite mirror_diag. reflexivity. }
  unfold do_align. rewrite Hraw. rewrite Lb. rewrite (diagonal_path_all_match L HL).
  eexists. split; [reflexivity|]. cbn [mo_raw mo_ops mo_group]. split; [reflexivity|]. split; [reflexivity|].
  intros ->. unfold grpK. cbn [g_nsip g_len g_codes g_prof]. rewrite repeat_length, Na, Nb. split; [reflexivity|]. split; [reflexivity|]. right. split; [reflexivity|].
  apply update_profile_raw; [rewrite <- Nb; exact Ra|rewrite <- Na; exact Rb].
Qed.

Definition diag_entry (e : nat * nat * nat * list Z * list Z * list (T AXu * Z * Z)) : Prop :=
  snd (fst (fst e)) = diag L /\ snd (fst e) = repeat 0 L.
Definition copies_groups (groups : list (option (group AXu))) : Prop :=
  forall i g, nth i groups None = Some g -> exists k, 1 <= k /\ grpK k g.

Lemma set_group_nth (gs : list (option (group AXu))) c g i : nth i (set_group AXu gs c g) None = if (i =? c)%nat then (if (c <? length gs)%nat then Some g else None) else nth i gs None.
Proof.
  revert c i; induction gs as [|y gs IH]; intros c i.
  - destruct c; cbn [set_group length]; destruct i; cbn [nth]; destruct (_ =? _)%nat; reflexivity.
  - destruct c as [|c]; destruct i as [|i]; cbn [set_group nth length]; try reflexivity. rewrite IH.
    change (Datatypes.S i =? Datatypes.S c)%nat with (i =? c)%nat. change (Datatypes.S c <? Datatypes.S (length gs))%nat with (c <? length gs)%nat. reflexivity.
Qed.

(* inside a larger run: the groups at the indices marked by [cp] are groups of copies of x; tasks either stay
   inside the marked indices (a, b and c marked) or write to an unmarked index; then every marked merge is diagonal and
   all-match, whatever the other merges do *)
Definition clade_tasks (cp : nat -> bool) (tasks : list (nat * nat * nat)) : Prop :=
  Forall (fun t => let '(a, b, c) := t in (cp a = true /\ cp b = true /\ cp c = true) \/ cp c = false) tasks.

Theorem run_tasks_clade (cp : nat -> bool) : forall tasks groups out,
  (forall i g, cp i = true -> nth i groups None = Some g -> exists k, 1 <= k /\ grpK k g) ->
  clade_tasks cp tasks ->
  run_tasks AXu PXu groups tasks = Some out ->
  Forall (fun e => cp (snd (fst (fst (fst e)))) = true -> diag_entry e) out.
Proof.
  induction tasks as [|[[a b] c] rest IH]; intros groups out Hg Ht Hr.
  - cbn [run_tasks] in Hr. inversion Hr; subst. constructor.
  - inversion Ht as [|? ? Hc Hrest]; subst.
    cbn [run_tasks] in Hr. destruct (nth a groups None) as [ga|] eqn:Ea; [|discriminate]. destruct (nth b groups None) as [gb|] eqn:Eb; [|discriminate].
    destruct (do_align AXu PXu ga gb (match rest with [] => true | _ => false end)) as [mo|] eqn:Em; [|discriminate].
    destruct (run_tasks AXu PXu (set_group AXu groups c (mo_group AXu mo)) rest) as [r|] eqn:Er; [|discriminate].
    inversion Hr; subst.
    destruct Hc as [(Ca & Cb & Cc)|Cc].
    + destruct (Hg a ga Ca Ea) as (k1 & H1 & Ga). destruct (Hg b gb Cb Eb) as (k2 & H2 & Gb).
      destruct (do_align_copies k1 k2 ga gb (match rest with [] => true | _ => false end) H1 H2 Ga Gb) as (mo' & Em' & Eraw & Eops & Egrp).
      rewrite Em in Em'. inversion Em'; subst mo'.
      constructor; [intros _; split; assumption|].
      destruct rest as [|t rest']; [cbn [run_tasks] in Er; inversion Er; constructor|].
      apply (IH (set_group AXu groups c (mo_group AXu mo))); [|exact Hrest|exact Er].
      intros i g Ci Hi. rewrite set_group_nth in Hi. destruct (i =? c)%nat.
      * destruct (c <? length groups)%nat; [|discriminate]. inversion Hi; subst. exists (k1 + k2). split; [lia|]. apply Egrp. reflexivity.
      * apply (Hg i g Ci Hi).
    + constructor; [cbn [fst snd]; intros Q; congruence|].
      apply (IH (set_group AXu groups c (mo_group AXu mo))); [|exact Hrest|exact Er].
      intros i g Ci Hi. rewrite set_group_nth in Hi. destruct (Nat.eqb_spec i c) as [->|N]; [congruence|]. apply (Hg i g Ci Hi).
Qed.

Theorem run_tasks_copies : forall tasks groups out, copies_groups groups ->
  run_tasks AXu PXu groups tasks = Some out -> Forall diag_entry out.
Proof.
  intros tasks groups out Hg Hr.
  eapply Forall_impl; [|apply (run_tasks_clade (fun _ => true) tasks groups out); [| |exact Hr]].
  - intros e H. apply H. reflexivity.
  - intros i g _. apply Hg.
  - apply Forall_forall. intros [[a b] c] _. left. auto.
Qed.

Lemma leaf_grpK : grpK 1 (leaf_group AXu x).
Proof. split; [reflexivity|]. split; [reflexivity|]. left. split; reflexivity. Qed.

End Run.

(* the task list of a labelled guide tree with distinct labels keeps the merges of a subtree (a clade) among the
   labels of that subtree and writes every other merge elsewhere - the shape run_tasks_clade asks for *)
Lemma tasks_outside s u : (forall i, In i (ids s) -> In i (ids u) -> False) -> clade_tasks (marks s) (tasks_of u).
Proof.
  intros H. unfold clade_tasks. eapply Forall_impl; [|apply tasks_in]. intros [[a b] c] (_ & _ & C). right. apply marks_out. intros Q. exact (H c Q C).
Qed.

Lemma subtree_clade_tasks s : forall t, NoDup (ids t) -> subtree s t -> clade_tasks (marks s) (tasks_of t).
Proof.
  intros t Hnd Hs. induction Hs as [|c l r Hs IH|c l r Hs IH].
  - (* the clade itself: every task stays inside *)
    unfold clade_tasks. eapply Forall_impl; [|apply tasks_in]. intros [[a b] c] (A & B & C). left. rewrite !marks_in. auto.
  - cbn [ids] in Hnd. inversion Hnd as [|? ? Hc Hrest]; subst. apply NoDup_app_iff in Hrest as (Hl & Hr & Hd). pose proof (subtree_incl _ _ Hs) as Hi.
    cbn [tasks_of]. constructor; [right; apply marks_out; intros Q; apply Hc, in_or_app; left; apply Hi, Q|].
    apply Forall_app. split; [apply IH, Hl|]. apply tasks_outside. intros i Q C. exact (Hd _ (Hi i Q) C).
  - cbn [ids] in Hnd. inversion Hnd as [|? ? Hc Hrest]; subst. apply NoDup_app_iff in Hrest as (Hl & Hr & Hd). pose proof (subtree_incl _ _ Hs) as Hi.
    cbn [tasks_of]. constructor; [right; apply marks_out; intros Q; apply Hc, in_or_app; right; apply Hi, Q|].
    apply Forall_app. split; [|apply IH, Hr]. apply tasks_outside. intros i Q C. exact (Hd _ C (Hi i Q)).
Qed.
