(* C08 in exact arithmetic, profile kernels: a group of k copies of one string has an explicit profile; on two such
   groups the profile-profile kernel (and on a string and a group the sequence-profile kernel) returns the diagonal.
   Built on scaled_square of ExactDiagInst.v and raw_path_diag of ExactDiag.v; the rows and columns of a pass are
   restricted to the ones a profile of copies can contain by running the generic lemma over a subset type (pass_comap). *)
From Coq Require Import ZArith List Lia.
From KV Require Import Kernels KernelProofs Pipeline PipelineProofs DupProofs ExactDiag ExactDiagInst.
Import ListNotations.
Local Open Scope Z_scope.

(* a pass only looks at its rows and columns through the cost record *)
Section Comap.
Variable A : alg.
Variables R C R' C' : Type.
Variable K : costs A R C.
Variable f : R' -> R.
Variable g : C' -> C.
Definition comap : costs A R' C' :=
  mkCosts A R' C' (fun r c x => k_match A R C K (f r) (g c) x)
          (fun c => k_ga_to_a A R C K (g c)) (fun r => k_gb_to_a A R C K (f r))
          (fun c => k_ga_ext A R C K (g c)) (fun c => k_ga_open A R C K (g c)) (fun c => k_ga_text A R C K (g c))
          (fun r => k_gb_ext A R C K (f r)) (fun r => k_gb_open A R C K (f r)) (fun r => k_gb_text A R C K (f r)).

Lemma init_cells_comap bi : forall cols prev, init_cells A R' C' comap bi prev cols = init_cells A R C K bi prev (map g cols).
Proof.
  induction cols as [|c cols IH]; intros prev; [reflexivity|]. destruct cols as [|c2 cols]; [reflexivity|].
  change (map g (c :: c2 :: cols)) with (g c :: g c2 :: map g cols).
  cbn [init_cells]. cbn [init_cells] in IH. f_equal. rewrite IH. reflexivity.
Qed.

Lemma row_cells_comap li r : forall old cols pa pga pgb xa xga,
  row_cells A R' C' comap li r pa pga pgb xa xga old cols = row_cells A R C K li (f r) pa pga pgb xa xga old (map g cols).
Proof.
  induction old as [|o old IH]; intros cols pa pga pgb xa xga; [reflexivity|].
  destruct cols as [|c cols]; [destruct old; reflexivity|].
  destruct old as [|o2 old]; destruct cols as [|c2 cols]; try reflexivity.
  change (map g (c :: c2 :: cols)) with (g c :: g c2 :: map g cols).
  cbn [row_cells]. cbn [row_cells] in IH. f_equal. rewrite (IH (c2 :: cols)). reflexivity.
Qed.

Lemma row_step_comap fi li cells cols r :
  row_step A R' C' comap fi li cells cols r = row_step A R C K fi li cells (map g cols) (f r).
Proof. destruct cells as [|o0 old]; [reflexivity|]. cbn [row_step]. rewrite row_cells_comap. reflexivity. Qed.

Lemma pass_comap fi li s0 rows cols :
  pass A R' C' comap fi li s0 rows cols = pass A R C K fi li s0 (map f rows) (map g cols).
Proof.
  unfold pass. rewrite init_cells_comap. generalize (s0 :: init_cells A R C K fi s0 (map g cols)).
  induction rows as [|r rows IH]; intros cells; [reflexivity|]. cbn [fold_left map]. rewrite row_step_comap. apply IH.
Qed.
End Comap.

Lemma sig_list {X} (P : X -> Prop) : forall l, Forall P l -> exists l' : list {x | P x}, map (@proj1_sig X P) l' = l.
Proof.
  induction 1 as [|x l Hx _ (l' & E)]; [exists []; reflexivity|]. exists (exist P x Hx :: l'). cbn [map proj1_sig]. rewrite E. reflexivity.
Qed.
Lemma sig_list2 {X Y} (P : X * Y -> Prop) : forall l1 l2, Forall2 (fun a b => P (a, b)) l1 l2 ->
  exists l : list {p | P p}, map (fun s => fst (proj1_sig s)) l = l1 /\ map (fun s => snd (proj1_sig s)) l = l2.
Proof.
  induction 1 as [|a b l1 l2 H _ (l & E1 & E2)]; [exists []; split; reflexivity|].
  exists (exist P (a, b) H :: l). cbn [map proj1_sig fst snd]. rewrite E1, E2. split; reflexivity.
Qed.

Lemma Forall2_rev {X Y} (P : X -> Y -> Prop) l1 l2 : Forall2 P l1 l2 -> Forall2 P (rev l1) (rev l2).
Proof. induction 1; [constructor|]. cbn [rev]. apply Forall2_app; [assumption|repeat constructor; assumption]. Qed.

Section Copies.
Variable unit : Z.
Hypothesis unit_pos : 0 <= unit.
Variable S : list (list Z).
Variables gpo gpe tgpe gam : Z.
Variable dim : nat.
Variable mx : Z.
Hypothesis Hok : scheme_ok unit S gpo gpe tgpe gam dim mx = true.
Hypothesis Hdim : (dim <= 23)%nat.
Notation AXu := (AX unit).
Notation PXu := (PX unit S gpo gpe tgpe).
Notation scS := (sc S).
Notation inrS := (inr dim).
Notation colX := (column AXu).

(* what the kernels read of a column of the profile of k copies, prepared for another side of n members *)
Definition gapsK (k n : Z) (col : colX) : Prop :=
  pget AXu col 27 = Some (- (k * gpo) * n) /\ pget AXu col 28 = Some (- (k * gpe) * n) /\ pget AXu col 29 = Some (- (k * tgpe) * n).
Definition resK (k : Z) (c : nat) (col : colX) : Prop :=
  (forall j, (j < 23)%nat -> pget AXu col j = Some (if (j =? c)%nat then k else 0)) /\
  (forall j, (j < 23)%nat -> pget AXu col (32 + j) = Some (k * scS c j)).

(* a row/column of a pass as the profile kernels see it: (own column, neighbour column), tagged with its residue code *)
Definition okRow (k n : Z) (cr : Z * RowP AXu) : Prop :=
  inrS (fst cr) = true /\ resK k (Z.to_nat (fst cr)) (fst (snd cr)) /\ gapsK k n (fst (snd cr)) /\ gapsK k n (snd (snd cr)).
Definition tagged (k n : Z) : Type := {cr : Z * RowP AXu | okRow k n cr}.
Definition code {k n} (s : tagged k n) : Z := fst (proj1_sig s).
Definition rowof {k n} (s : tagged k n) : RowP AXu := snd (proj1_sig s).
Definition Cz : Type := {c : Z | inrS c = true}.

Lemma inr_lt23 c : inrS c = true -> (Z.to_nat c < 23)%nat.
Proof. unfold inr. intros H. apply Nat.ltb_lt in H. lia. Qed.

Lemma gaps_nonpos k n g : 0 <= k -> 0 <= n -> 0 <= g -> - (k * g) * n <= 0.
Proof. intros Hk Hn Hg. pose proof (Z.mul_nonneg_nonneg _ _ (Z.mul_nonneg_nonneg _ _ Hk Hg) Hn). lia. Qed.

Lemma gapsK_nonpos k n col : 0 <= k -> 0 <= n -> gapsK k n col ->
  nonpos (pget AXu col 27) /\ nonpos (pget AXu col 28) /\ nonpos (pget AXu col 29).
Proof.
  intros Hk Hn (A1 & A2 & A3). destruct (gaps_nonneg unit S gpo gpe tgpe gam dim mx Hok) as (G1 & G2 & G3).
  rewrite A1, A2, A3. repeat split; eexists; (split; [reflexivity|apply gaps_nonpos; assumption]).
Qed.

Lemma tagged_gaps k n q (s : tagged k n) : 0 <= k -> 0 <= n -> q = k * n ->
  gapc gpo gpe tgpe q (pget AXu (fst (rowof s)) 28) /\ gapc gpo gpe tgpe q (pget AXu (fst (rowof s)) 27) /\
  gapc gpo gpe tgpe q (pget AXu (fst (rowof s)) 29) /\ nonpos (pget AXu (snd (rowof s)) 27).
Proof.
  intros Hk Hn Eq. subst q. destruct s as [[c [own nb]] (Ic & Rc & (A1 & A2 & A3) & Gn)]. cbn [rowof proj1_sig fst snd] in *.
  rewrite A1, A2, A3. split; [|split; [|split]]; [exists gpe|exists gpo|exists tgpe|apply (gapsK_nonpos k n nb Hk Hn Gn)];
    (split; [auto|apply (f_equal (@Some Z)); ring]).
Qed.

Lemma filter_eqb c n a : (a <= c < a + n)%nat -> filter (fun j => (j =? c)%nat) (seq a n) = [c].
Proof.
  revert a; induction n as [|n IH]; intros a H; [lia|]. cbn [seq filter]. destruct (Nat.eqb_spec a c) as [->|N].
  - f_equal. clear. generalize (Datatypes.S c) (Nat.lt_succ_diag_r c). intros b Hb. revert b Hb; induction n as [|n IH]; intros b Hb; [reflexivity|].
    cbn [seq filter]. destruct (Nat.eqb_spec b c); [lia|]. apply IH. lia.
  - apply IH. lia.
Qed.

Lemma pp_match_ok k1 k2 c1 c2 (own1 own2 : colX) (nb1 nb2 : colX) v : k1 <> 0 -> (c1 < 23)%nat ->
  resK k1 c1 own1 -> resK k2 c2 own2 ->
  pp_match AXu (own1, nb1) (own2, nb2) v = xadd v (Some (k1 * (k2 * scS c2 c1))).
Proof.
  intros Hk Hc (Q1 & _) (_ & Q2). unfold pp_match. cbn [fst].
  assert (Ef : filter (fun j => nonzero AXu (pget AXu own1 j)) (seq 0 23) = [c1]).
  { rewrite <- (filter_eqb c1 23 0) by lia. apply filter_ext_in. intros j Hj. apply in_seq in Hj. rewrite Q1 by lia.
    cbn [nonzero AX alg_X xnonzero]. destruct (Nat.eqb_spec j c1); [destruct k1; try reflexivity; congruence|reflexivity]. }
  rewrite Ef. cbn [rev app fold_left]. rewrite Q1 by exact Hc. rewrite Nat.eqb_refl. rewrite Q2 by exact Hc. reflexivity.
Qed.

Variable x : list Z.
Hypothesis Hx : Forall (fun c => inrS c = true) x.
Definition profK (k n : Z) (p : list colX) : Prop :=
  length p = (length x + 2)%nat /\ (forall j, (j < length x + 2)%nat -> gapsK k n (nth j p [])) /\
  (forall j, (j < length x)%nat -> resK k (Z.to_nat (nth j x 0)) (nth (Datatypes.S j) p [])).

Lemma code_inr j : (j < length x)%nat -> inrS (nth j x 0) = true.
Proof. intros H. rewrite Forall_forall in Hx. apply Hx. apply nth_In. exact H. Qed.

Lemma profK_nonpos k n p j : profK k n p -> 0 <= k -> 0 <= n ->
  nonpos (pget AXu (nth j p []) 27) /\ nonpos (pget AXu (nth j p []) 28) /\ nonpos (pget AXu (nth j p []) 29).
Proof.
  intros (Lp & G & _) Hk Hn. destruct (Nat.ltb_spec j (length x + 2)) as [Lt|Ge]; [apply (gapsK_nonpos k n); auto|].
  rewrite nth_overflow by lia. repeat split; exists 0; split; try reflexivity; lia.
Qed.

(* the rows a pass sees between a and b, each with the code of x it belongs to: own column j+1, neighbour column j
   (forward, d = 0) or j+2 (backward before reversal, d = 2) *)
Lemma okRows k n p a b d : profK k n p -> 0 <= a -> a <= b -> b <= Z.of_nat (length x) -> d = 0 \/ d = 2 ->
  Forall2 (fun c r => okRow k n (c, r)) (slice x a b) (combine (slice p (a + 1) (b + 1)) (slice p (a + d) (b + d))).
Proof.
  intros (Lp & G & Rk) Ha Hab Hb Hd. apply Forall2_nth_intro with (d1 := 0) (d2 := ([] : colX, [] : colX)).
  - rewrite combine_length, !slice_length by lia. lia.
  - intros t Ht. rewrite slice_length in Ht by lia. rewrite combine_nth by (rewrite !slice_length by lia; lia). rewrite !nth_slice by lia.
    unfold okRow. cbn [fst snd]. split; [apply code_inr; lia|]. split; [|split; apply G; lia].
    replace (Z.to_nat (a + 1) + t)%nat with (Datatypes.S (Z.to_nat a + t)) by lia. apply Rk. lia.
Qed.

Lemma rows_fwd_tagged k n p a b : profK k n p -> 0 <= a -> a <= b -> b <= Z.of_nat (length x) ->
  exists l : list (tagged k n), map code l = slice x a b /\ map rowof l = rows_fwd AXu p a b.
Proof.
  intros Hp Ha Hab Hb. apply sig_list2. pose proof (okRows k n p a b 0 Hp Ha Hab Hb (or_introl eq_refl)) as H.
  rewrite !Z.add_0_r in H. exact H.
Qed.
Lemma rows_bwd_tagged k n p a b : profK k n p -> 0 <= a -> a <= b -> b <= Z.of_nat (length x) ->
  exists l : list (tagged k n), map code l = rev (slice x a b) /\ map rowof l = rows_bwd AXu p a b.
Proof. intros Hp Ha Hab Hb. apply sig_list2, Forall2_rev, (okRows k n p a b 2 Hp Ha Hab Hb). auto. Qed.

Notation scaledS := (scaled unit S gpo gpe tgpe gam dim mx).

Section PP.
Variables k1 k2 : Z.
Hypothesis Hk1 : 1 <= k1.
Hypothesis Hk2 : 1 <= k2.
Variables p1 p2 : list colX.
Hypothesis Hp1 : profK k1 k2 p1.
Hypothesis Hp2 : profK k2 k1 p2.
Definition KP : costs AXu (tagged k1 k2) (tagged k2 k1) := comap AXu _ _ _ _ (pp_costs AXu) rowof rowof.

Lemma gaps_scaled k n g : 0 <= k -> 0 <= n -> 0 <= g -> - (k * g) * n <= 0.
Proof using Hdim k1 k2. exact (gaps_nonpos k n g). Qed.

Lemma pp_scaled mid : scaledS (tagged k1 k2) (tagged k2 k1) KP (pp_meet AXu p1 p2 mid) (k1 * k2) code code.
Proof.
  split.
  - apply (Z.mul_le_mono_nonneg 1 k1 1 k2); lia.
  - intros [[cr [own1 nb1]] (Ir & Rr & Gr)] [[cc [own2 nb2]] (Ic & Rc & Gc)] v. cbn [fst snd] in *. exists (scS (Z.to_nat cc) (Z.to_nat cr)).
    cbn [k_match KP comap pp_costs rowof code proj1_sig fst snd].
    rewrite (pp_match_ok k1 k2 (Z.to_nat cr) (Z.to_nat cc) own1 own2 nb1 nb2 v ltac:(lia) (inr_lt23 cr Ir) Rr Rc), Z.mul_assoc.
    split; [reflexivity|]. split; [|intros ->; reflexivity].
    pose proof (match_ub unit unit_pos S gpo gpe tgpe gam dim mx Hok cc cr). lia.
  - intros c. apply (tagged_gaps k2 k1 (k1 * k2) c); lia.
  - intros r. apply (tagged_gaps k1 k2 (k1 * k2) r); lia.
  - repeat split; intros; first [apply (profK_nonpos k1 k2 p1 _ Hp1)|apply (profK_nonpos k2 k1 p2 _ Hp2)]; lia.
Qed.

Lemma pp_square o e : 0 <= o -> o < e -> e <= Z.of_nat (length x) ->
  let Kn := pp_kernel AXu p1 p2 in
  let mid := (e - o) / 2 + o in
  exists v, k_meetup AXu Kn mid o e (k_forward AXu Kn o mid o e (live0 AXu)) (k_backward AXu Kn mid e o e (live0 AXu)) = (v, 1, mid).
Proof.
  intros Ho Hoe He. cbv zeta. pose proof (mid_bounds o e Hoe) as Hmid. set (mid := (e - o) / 2 + o) in *.
  destruct (rows_fwd_tagged k1 k2 p1 o mid Hp1) as (RF & CRF & ERF); try lia.
  destruct (rows_bwd_tagged k1 k2 p1 mid e Hp1) as (RB & CRB & ERB); try lia.
  destruct (rows_fwd_tagged k2 k1 p2 o e Hp2) as (CF & CCF & ECF); try lia.
  destruct (rows_bwd_tagged k2 k1 p2 o e Hp2) as (CB & CCB & ECB); try lia.
  cbn [pp_kernel k_meetup k_forward k_backward]. unfold cols_fwd, cols_bwd. fold (rows_fwd AXu p2 o e) (rows_bwd AXu p2 o e).
  rewrite <- ERF, <- ERB, <- ECF, <- ECB, <- !(pass_comap AXu _ _ _ _ (pp_costs AXu) rowof rowof). fold KP.
  apply (scaled_square unit unit_pos S gpo gpe tgpe gam dim mx Hok _ _ KP _ (k1 * k2) code code (pp_scaled mid) x); assumption.
Qed.
End PP.

Theorem pp_identical_diagonal k1 k2 p1 p2 : 1 <= k1 -> 1 <= k2 -> profK k1 k2 p1 -> profK k2 k1 p2 ->
  raw_path AXu (pp_kernel AXu p1 p2) (Z.of_nat (length x)) (Z.of_nat (length x)) = Some (diag (length x)).
Proof.
  intros H1 H2 P1 P2. rewrite <- seq1_diag. rewrite <- (Nat2Z.id (length x)) at 3. apply (raw_path_diag (tbk unit)); [|lia].
  intros o e Ho Hoe He. apply (pp_square k1 k2 H1 H2 p1 p2 P1 P2); assumption.
Qed.

Section SP.
Variable k : Z.
Hypothesis Hk : 1 <= k.
Variable p1 : list colX.
Hypothesis Hp1 : profK k 1 p1.
Definition KSP : costs AXu (tagged k 1) Cz := comap AXu _ _ _ _ (sp_costs AXu PXu k) rowof (@proj1_sig _ _).

Lemma sp_scaled mid : scaledS (tagged k 1) Cz KSP (sp_meet AXu PXu k p1 mid) k code (@proj1_sig _ _).
Proof.
  destruct (gaps_nonneg unit S gpo gpe tgpe gam dim mx Hok) as (G1 & G2 & G3).
  assert (Hg : forall g, g = gpo \/ g = gpe \/ g = tgpe -> gapc gpo gpe tgpe k (Some (- (g * k)))) by (intros g Hg; exists g; rewrite (Z.mul_comm k g); auto).
  assert (Hn : nonpos (Some (- (gpo * k)))) by (apply nonpos_neg, Z.mul_nonneg_nonneg; lia).
  split.
  - exact Hk.
  - intros [[cr [own1 nb1]] (Ir & (Q1 & Q2) & Gr)] [cc Ic] v. cbn [fst snd] in *. exists (scS (Z.to_nat cr) (Z.to_nat cc)).
    cbn [k_match KSP comap sp_costs rowof code proj1_sig fst snd]. rewrite (Q2 _ (inr_lt23 cc Ic)).
    split; [reflexivity|]. split; [apply (match_ub unit unit_pos S gpo gpe tgpe gam dim mx Hok)|intros ->; reflexivity].
  - intros c. repeat split; [apply Hg..|exact Hn]; auto.
  - intros r. apply (tagged_gaps k 1 k r); lia.
  - repeat split; intros; first [exact Hn|apply (profK_nonpos k 1 p1 _ Hp1); lia].
Qed.

Lemma sp_square o e : 0 <= o -> o < e -> e <= Z.of_nat (length x) ->
  let Kn := sp_kernel AXu PXu p1 x k in
  let mid := (e - o) / 2 + o in
  exists v, k_meetup AXu Kn mid o e (k_forward AXu Kn o mid o e (live0 AXu)) (k_backward AXu Kn mid e o e (live0 AXu)) = (v, 1, mid).
Proof.
  intros Ho Hoe He. cbv zeta. pose proof (mid_bounds o e Hoe) as Hmid. set (mid := (e - o) / 2 + o) in *.
  destruct (rows_fwd_tagged k 1 p1 o mid Hp1) as (RF & CRF & ERF); try lia.
  destruct (rows_bwd_tagged k 1 p1 mid e Hp1) as (RB & CRB & ERB); try lia.
  assert (Hs : Forall (fun c => inrS c = true) (slice x o e)) by (rewrite Forall_forall in *; intros c Hc; apply Hx, (slice_incl x o e), Hc).
  destruct (sig_list _ _ Hs) as (CF & ECF). destruct (sig_list _ _ (Forall_rev Hs)) as (CB & ECB).
  cbn [sp_kernel k_meetup k_forward k_backward].
  rewrite <- ERF, <- ERB, <- ECB, <- ECF, <- !(pass_comap AXu _ _ _ _ (sp_costs AXu PXu k) rowof (@proj1_sig _ _)). fold KSP.
  apply (scaled_square unit unit_pos S gpo gpe tgpe gam dim mx Hok _ _ KSP _ k code (@proj1_sig _ _) (sp_scaled mid) x); assumption.
Qed.

Theorem sp_identical_diagonal :
  raw_path AXu (sp_kernel AXu PXu p1 x k) (Z.of_nat (length x)) (Z.of_nat (length x)) = Some (diag (length x)).
Proof.
  rewrite <- seq1_diag. rewrite <- (Nat2Z.id (length x)) at 3. apply (raw_path_diag (tbk unit)); [|lia].
  intros o e Ho Hoe He. apply sp_square; assumption.
Qed.
End SP.
End Copies.
