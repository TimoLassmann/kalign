(* C01 at the level of the whole run (kalign_run / kalign, Api.v): whatever the numeric core returns - as long as it
   returns one gap vector of len+1 counters per sequence - the result has one row per non-empty input sequence, in
   input order, under the input name, and deleting the gap characters of a row gives back the input residues.
   This is where the rank recorded before sorting and restored after (msa_sort_rank) is proved to work. *)
From KV Require Import Base Sort SortProofs Weave WeaveProofs Api ApiProofs.
From Coq Require Import Permutation Sorted.
Local Open Scope Z_scope.

Lemma sorted_filter {A} (R : A -> A -> Prop) (p : A -> bool) : forall l, StronglySorted R l -> StronglySorted R (filter p l).
Proof.
  induction 1 as [|x l S IH F]; [constructor|]. cbn [filter]. destruct (p x); [|exact IH].
  constructor; [exact IH|]. rewrite Forall_forall in *. intros y Hy. apply filter_In in Hy. apply F. apply Hy.
Qed.

Lemma with_ranks_sorted : forall recs i,
  StronglySorted (fun x y => r_rank x < r_rank y) (with_ranks i recs) /\ Forall (fun x => i <= r_rank x) (with_ranks i recs).
Proof.
  induction recs as [|[nm res] recs IH]; intros i; cbn [with_ranks]; [split; constructor|].
  destruct (IH (i + 1)) as [S F]. split.
  - constructor; [exact S|]. eapply Forall_impl; [|exact F]. intros a Ha. simpl in *. lia.
  - constructor; [simpl; lia|]. eapply Forall_impl; [|exact F]. intros a Ha. simpl in *. lia.
Qed.

Lemma cmp_rank_le x y : cmp_rank x y <= 0 <-> r_rank x <= r_rank y.
Proof. unfold cmp_rank. destruct (Z.ltb_spec (r_rank y) (r_rank x)); lia. Qed.

Lemma sort_rank_sorted l : StronglySorted (fun x y => r_rank x <= r_rank y) (sort_rank l).
Proof.
  assert (H : StronglySorted (fun x y => cmp_rank x y <= 0) (sort_rank l)).
  { apply (msort_sorted cmp_rank (fun _ => True)).
    - intros x y z _ _ _ H1 H2. apply cmp_rank_le in H1, H2. apply cmp_rank_le. lia.
    - apply Forall_forall. intros; exact I.
    - intros l1 l2 x y _ _ _. destruct (Z.le_ge_cases (r_rank x) (r_rank y)); [left|right]; apply cmp_rank_le; lia. }
  clear -H. induction H as [|x l' S IH F]; constructor; [exact IH|].
  eapply Forall_impl; [|exact F]. intros y Hy. apply cmp_rank_le. exact Hy.
Qed.

Definition came_from (a r : srec) : Prop :=
  r_rank a = r_rank r /\ r_name a = r_name r /\ degap (r_res a) = r_res r.

Lemma aligned_from : forall gaps sorted, length gaps = length sorted ->
  Forall (fun r => Forall (fun c => c <> dash) (r_res r)) sorted ->
  Forall2 came_from (map mk_aligned (combine gaps sorted)) sorted.
Proof.
  induction gaps as [|g gaps IH]; intros [|r sorted] H Hd; simpl in H; try discriminate; [constructor|].
  inversion Hd; subst. cbn [combine map]. constructor; [|apply IH; auto].
  split; [reflexivity|split; [reflexivity|]]. cbn [mk_aligned r_res fst snd]. rewrite degap_expand. apply degap_id. assumption.
Qed.

Lemma strict_sorted_distinct kept : StronglySorted (fun x y => r_rank x < r_rank y) kept ->
  forall x y, In x kept -> In y kept -> r_rank x = r_rank y -> x = y.
Proof.
  induction 1 as [|z l S IH F]; intros x y Hx Hy E; [contradiction|]. rewrite Forall_forall in F.
  destruct Hx as [<-|Hx]; destruct Hy as [<-|Hy]; auto; [specialize (F _ Hy)|specialize (F _ Hx)]; cbv beta in F; lia.
Qed.

(* ranks are distinct, so sorting any permutation of kept by rank gives kept back *)
Lemma sort_rank_id kept sorted : StronglySorted (fun x y => r_rank x < r_rank y) kept ->
  Permutation sorted kept -> sort_rank sorted = kept.
Proof.
  intros Hk Hp. assert (P : Permutation (sort_rank sorted) kept) by (etransitivity; [apply msort_perm|exact Hp]).
  apply (sorted_perm_unique (fun x y => r_rank x <= r_rank y)); [|apply sort_rank_sorted| |exact P|auto].
  - intros x y Hx Hy H1 H2. apply (strict_sorted_distinct kept Hk); [eapply Permutation_in; eauto..|lia].
  - clear -Hk. induction Hk as [|a l _ IH F]; [constructor|]. constructor; [exact IH|]. eapply Forall_impl; [|exact F]. intros; cbv beta in *; lia.
Qed.

Theorem rank_restores_order : forall kept aligned sorted,
  StronglySorted (fun x y => r_rank x < r_rank y) kept ->
  Permutation sorted kept -> Forall2 came_from aligned sorted ->
  Forall2 came_from (sort_rank aligned) kept.
Proof.
  intros kept aligned sorted Hk Hp HF. rewrite <- (sort_rank_id kept sorted Hk Hp).
  apply (msort_Forall2 came_from cmp_rank cmp_rank); [|exact HF].
  intros x x' y y' (Hx & _) (Hy & _). apply cmp_rank_resp; assumption.
Qed.
