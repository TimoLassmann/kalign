(* C10 - Progressive merging never re-aligns a finished sub-alignment.
   Statements only; proofs are in WeaveProofs.v / AssemblyProofs.v and, for every guide tree, TreePaths.v. *)
From KV Require Import Base Weave WeaveProofs AssemblyProofs.
From KV Require Pipeline CladeTasks TreeSchedule TreeAssembly TreePaths.
Local Open Scope nat_scope.

(* update_gaps (weave_alignment.c:117) is column insertion: for every gap vector, residue list
   and insertion vector, the row rebuilt from the updated gap counts is the old row with
   ng[j] gap columns inserted before column j. *)
Theorem C10_update_gaps_is_column_insertion : forall res g ng,
  length g = S (length res) ->
  length ng = S (length (expand g res)) ->
  expand (update_gaps g ng) res = expand ng (expand g res).
Proof. exact update_gaps_refines. Qed.
Print Assumptions C10_update_gaps_is_column_insertion.

(* One merge applies one and the same column insertion to every row of a group. *)
Theorem C10_merge_is_uniform : forall seqs st act a b c ops wa wb,
  Inv seqs st act -> In a act -> In b act -> a <> b ->
  width_ok seqs st a wa -> width_ok seqs st b wb -> ops_fit (map op_kind ops) wa wb ->
  forall i, i < length seqs ->
    row_of seqs (merge_step st a b c ops) i =
      if memb i (members st a) then weave_a (map op_kind ops) (row_of seqs st i)
      else if memb i (members st b) then weave_b (map op_kind ops) (row_of seqs st i)
      else row_of seqs st i.
Proof. exact merge_step_rows. Qed.
Print Assumptions C10_merge_is_uniform.

(* Main statement.  For every set of sequences, every valid continuation of the run (any guide
   tree in any child-before-parent order, any paths whose ops fit) and every block S of rows that
   lies inside one group: after the run, the rows of S with the columns that are gaps in all of
   them removed are what they were (stripped the same way) before. *)
Theorem C10_finished_blocks_are_preserved : forall seqs tasks st act,
  Inv seqs st act -> valid_run seqs st act tasks ->
  forall S x w, In x act -> incl S (members st x) -> width_ok seqs st x w ->
  strip_allgap (map (row_of seqs (run_from st tasks)) S) = strip_allgap (map (row_of seqs st) S).
Proof. exact run_preserves_blocks. Qed.
Print Assumptions C10_finished_blocks_are_preserved.

(* The same with the premises about the run discharged: for EVERY guide tree (kalign's serial schedule of it) and EVERY
   family of raw paths that are well-formed for the widths of the groups they join (TreePaths.build_tasks), stop the run
   after any number of merges: every block of rows inside a group that is active at that moment comes out of the
   finished run, stripped of its all-gap columns, exactly as it was.  (TreeSchedule/TreeAssembly/TreePaths.v) *)
Theorem C10_blocks_preserved_for_every_guide_tree_and_wf_path : forall seqs,
  Forall (Forall (fun c => c <> dash)) seqs ->
  forall t, NoDup (CladeTasks.leaves t) -> (forall i, In i (CladeTasks.leaves t) <-> i < length seqs) ->
  forall paths tasks,
  TreePaths.build_tasks seqs (st0 seqs) (Pipeline.sort_tasks (Pipeline.tasks_of (fst (Pipeline.label t (length seqs))))) paths = Some tasks ->
  forall t1 t2, tasks = (t1 ++ t2)%list ->
  let mid := run_from (st0 seqs) t1 in
  forall x S, In x (act_final (seq 0 (length seqs)) t1) -> incl S (members mid x) ->
  strip_allgap (map (row_of seqs (run_from (st0 seqs) tasks)) S) = strip_allgap (map (row_of seqs mid) S).
Proof. exact TreePaths.blocks_preserved_every_tree_every_wf_path. Qed.
Print Assumptions C10_blocks_preserved_for_every_guide_tree_and_wf_path.

(* Non-vacuity: a real run observed on the implementation (3 DNA sequences, two merges) satisfies
   the premises; the boolean validity check is the one proved sound in AssemblyProofs. *)
Definition ex_seqs : list (list Z) :=
  [[67;71;84;65;67;71;84;84;71;65;67;67;65;71;71]; [65;67;71;84;65;67;71;84;84;71;65;67;67;65];
   [65;67;71;84;67;71;84;84;84;71;65;67;65]]%Z.
Definition ex_tasks : list task :=
  [(0, 1, 3, [33;0;0;0;0;0;0;0;0;0;0;0;0;2;2;0]%Z); (3, 2, 4, [0;0;0;0;0;0;0;0;0;0;0;0;2;2;2;0]%Z)].
Example C10_nonvacuous :
  valid_runb ex_seqs (st0 ex_seqs) (seq 0 3) ex_tasks = true /\
  strip_allgap (map (row_of ex_seqs (run_from (st0 ex_seqs) ex_tasks)) [1; 0]) =
  map (row_of ex_seqs (run_from (st0 ex_seqs) (firstn 1 ex_tasks))) [1; 0].
Proof. vm_compute. split; reflexivity. Qed.
