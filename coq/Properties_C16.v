(* C16 - A library call's result does not depend on the calls made before it.
   The lemmas behind the statements are in HistoryProofs.v.  The model (History.v) wires the per-call models
   (readers, kalign_run_model around the numeric pipeline, writers, comparison) to a store of msa
   objects and to an explicit ambient state.  The theorems hold for EVERY numeric pipeline [acore]
   that, of the ambient state, reads at most what kalign_run sets itself before starting it
   (premise [reads_prepared_only]) - that premise, and the claim that the per-call models take
   nothing but their argument objects, are what the history runs test on the code. *)
From KV Require Import Base Params History HistoryProofs.
Local Open Scope Z_scope.

Definition reads_prepared_only (acore : ambient -> Z -> params -> list (list Z) -> list (list Z) -> list (list nat)) : Prop :=
  forall G G' t, acore (prepared G t) = acore (prepared G' t).

(* one call: the ambient state left by earlier calls influences neither the result nor any object *)
Theorem C16_ambient_state_is_irrelevant : forall acore, reads_prepared_only acore ->
  forall G G' s c,
  snd (step acore (G, s) c) = snd (step acore (G', s) c) /\
  forall h, snd (fst (step acore (G, s) c)) h = snd (fst (step acore (G', s) c)) h.
Proof.
  intros acore Hc G G' s c.
  (* locality on the handles the call names, frame on the others *)
  destruct (step_local acore Hc (G, s) (G', s) c) as [R S]; [intros h _; reflexivity|]. split; [exact R|].
  intro h. destruct (in_dec Nat.eq_dec h (handles c)) as [Hh|Hh]; [apply S; exact Hh|].
  rewrite !step_frame by exact Hh. reflexivity.
Qed.
Print Assumptions C16_ambient_state_is_irrelevant.

(* one call: objects it does not name are untouched; result and named objects depend only on the named objects *)
Theorem C16_frame : forall acore x c h, ~ In h (handles c) -> snd (fst (step acore x c)) h = snd x h.
Proof. exact step_frame. Qed.
Print Assumptions C16_frame.

Theorem C16_locality : forall acore, reads_prepared_only acore -> forall x y c,
  (forall h, In h (handles c) -> snd x h = snd y h) ->
  snd (step acore x c) = snd (step acore y c) /\
  (forall h, In h (handles c) -> snd (fst (step acore x c)) h = snd (fst (step acore y c)) h).
Proof. exact step_local. Qed.
Print Assumptions C16_locality.

(* histories: after ANY finite sequence of calls, a call gives the result it gives in a fresh process
   (any ambient state, same initial objects) that made only the calls its arguments were built by *)
Theorem C16_history : forall acore, reads_prepared_only acore -> forall pre c x y,
  (forall h, snd x h = snd y h) ->
  snd (step acore (fst (run_history acore x pre)) c) =
  snd (step acore (fst (run_history acore y (slice (handles c) pre))) c).
Proof. exact history_slice. Qed.
Print Assumptions C16_history.

(* kalign_write_msa is read-only: a write leaves every object and the ambient state as they were, so the fresh process
   need not repeat the writes of the history either - the call gives what it gives after the slice of the write-free history *)
Theorem C16_write_is_read_only : forall acore x h fmt b d v, fst (step acore x (CWrite h fmt b d v)) = x.
Proof. exact step_write_read_only. Qed.
Print Assumptions C16_write_is_read_only.

Theorem C16_history_without_writes : forall acore, reads_prepared_only acore -> forall pre c x y,
  (forall h, snd x h = snd y h) ->
  snd (step acore (fst (run_history acore x pre)) c) =
  snd (step acore (fst (run_history acore y (slice (handles c) (drop_writes pre)))) c).
Proof.
  intros acore Hc pre c x y Hxy. rewrite (run_history_drop_writes acore pre x). apply (history_slice acore Hc). exact Hxy.
Qed.
Print Assumptions C16_history_without_writes.

(* kalign_free_msa forgets: after it the handle holds nothing, whatever it held before - so the calls that produced a freed
   object are not among the calls a later object under the same handle was built by (the check's backward walk stops
   following a handle at its free; the sliced-history theorem above is proved for the coarser walk that does not) *)
Theorem C16_free_forgets : forall acore x y h,
  (forall h', h' <> h -> snd x h' = snd y h') ->
  snd (step acore x (CFree h)) = snd (step acore y (CFree h)) /\
  forall h', snd (fst (step acore x (CFree h))) h' = snd (fst (step acore y (CFree h))) h'.
Proof.
  intros acore [G s] [G' s'] h. cbn [snd fst step]. intros H. split; [reflexivity|].
  intros h'. unfold upd. destruct (Nat.eqb_spec h' h) as [->|N]; [reflexivity|]. apply H. exact N.
Qed.
Print Assumptions C16_free_forgets.

(* ledger, at object granularity: once every handle is freed no object is left, whatever happened before *)
Theorem C16_ledger : forall acore cs x n,
  live (snd (fst (run_history acore (fst (run_history acore x cs)) (map CFree (seq 0 n))))) n = 0%nat.
Proof.
  intros acore cs x n. destruct (frees_state acore (seq 0 n) (fst (run_history acore x cs))) as [F _].
  unfold live. rewrite filter_none; [reflexivity|exact F].
Qed.
Print Assumptions C16_ledger.

(* Non-vacuity: a pipeline that reads nothing from the ambient state (it inserts no gaps), and a
   concrete history in which the last call's slice drops two calls on another object *)
Definition toy_core (_ : ambient) (_ : Z) (_ : params) (codes _ : list (list Z)) : list (list nat) :=
  map (fun c => repeat 0%nat (S (length c))) codes.
Example C16_nonvacuous :
  reads_prepared_only toy_core /\
  let f1 := [62; 97; 10; 65; 67; 71; 84; 10; 62; 98; 10; 65; 67; 71; 10] in
  let f2 := [62; 99; 10; 65; 65; 10; 62; 100; 10; 65; 67; 10] in
  let ng := 3212836864%N in
  let pre := [CRead 0%nat [f1]; CRead 1%nat [f2]; CRun 1%nat 4 5 ng ng ng; CRun 0%nat 2 5 ng ng ng; CFree 1%nat] in
  let c := CWrite 0%nat None [] [] [] in
  slice (handles c) pre = [CRead 0%nat [f1]; CRun 0%nat 2 5 ng ng ng] /\
  snd (step toy_core (fst (run_history toy_core (mkG 1 false 0, empty_store) pre)) c) =
  RBytes [62; 97; 10; 65; 67; 71; 84; 10; 62; 98; 10; 65; 67; 71; 10].
Proof. split; [intros G G' t; reflexivity|]. vm_compute. split; reflexivity. Qed.
