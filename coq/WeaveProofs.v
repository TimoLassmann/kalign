(* The weave layer in terms of rows.  update_gaps is column insertion ([expand] applied to an
   already expanded row); a merge applies one column insertion to every row of group a and
   another to every row of group b; hence along a run the rows of a group only ever receive
   common whole columns of gaps (C01 residues, C10 blocks, C12 equal rows). *)
From KV Require Import ListFacts Base Weave.
Local Open Scope nat_scope.

Lemma sum_nat_app a b : sum_nat (a ++ b) = sum_nat a + sum_nat b.
Proof. induction a; simpl; lia. Qed.

Lemma expand_cons_cons n ng x rest :
  expand (n :: ng) (x :: rest) = repeat dash n ++ x :: expand ng rest.
Proof. reflexivity. Qed.

Lemma expand_dashes : forall k ng rest,
  k <= length ng ->
  expand ng (repeat dash k ++ rest) =
  repeat dash (k + sum_nat (firstn k ng)) ++ expand (skipn k ng) rest.
Proof.
  induction k as [|k IH]; intros ng rest Hk.
  - reflexivity.
  - destruct ng as [|n ng]; [simpl in Hk; lia|].
    simpl repeat. rewrite <- app_comm_cons, expand_cons_cons.
    rewrite IH by (simpl in Hk; lia).
    simpl firstn. simpl skipn. simpl sum_nat.
    change (dash :: repeat dash (k + (n + sum_nat (firstn k ng))))
      with (repeat dash (S (k + (n + sum_nat (firstn k ng))))).
    replace (S (k + (n + sum_nat (firstn k ng)))) with (n + S (k + sum_nat (firstn k ng))) by lia.
    rewrite (repeat_app dash n). simpl. rewrite <- app_assoc. reflexivity.
Qed.

Lemma firstn_S_sum : forall k (ng : list nat), k < length ng ->
  sum_nat (firstn (S k) ng) = sum_nat (firstn k ng) + nth k ng 0.
Proof.
  induction k as [|k IH]; intros [|n ng] H; simpl in *; try lia.
  specialize (IH ng ltac:(lia)). simpl in IH. rewrite IH. lia.
Qed.

Lemma expand_length : forall res g, length g = S (length res) ->
  length (expand g res) = length res + sum_nat g.
Proof.
  induction res as [|r res IH]; intros [|g0 g] H; simpl in *; try lia.
  - destruct g; simpl in *; try lia. rewrite repeat_length. lia.
  - rewrite app_length, repeat_length. simpl. rewrite IH by lia. lia.
Qed.

Theorem update_gaps_refines : forall res g ng,
  length g = S (length res) ->
  length ng = S (length (expand g res)) ->
  expand (update_gaps g ng) res = expand ng (expand g res).
Proof.
  induction res as [|r res IH]; intros g ng Hg Hn.
  - destruct g as [|gl [|? ?]]; simpl in Hg; try lia.
    cbn [expand update_gaps] in *. rewrite repeat_length in Hn.
    pose proof (expand_dashes gl ng [] ltac:(lia)) as E.
    rewrite app_nil_r in E. rewrite E.
    rewrite (skipn_nth_cons 0 gl ng) by lia. cbn [expand].
    rewrite <- repeat_app.
    rewrite (firstn_S_sum gl ng) by lia.
    f_equal. lia.
  - destruct g as [|g0 g]; simpl in Hg; [lia|].
    cbn [update_gaps]. rewrite expand_cons_cons.
    cbn [expand] in Hn |- *.
    rewrite app_length, repeat_length in Hn. simpl in Hn.
    rewrite expand_dashes by lia.
    rewrite (skipn_nth_cons 0 g0 ng) by lia.
    rewrite expand_cons_cons.
    rewrite IH.
    + rewrite (firstn_S_sum g0 ng) by lia.
      rewrite app_assoc, <- repeat_app. f_equal. f_equal. lia.
    + lia.
    + rewrite skipn_length. lia.
Qed.

Lemma update_gaps_length : forall g ng, length (update_gaps g ng) = length g.
Proof. induction g; intros; simpl; auto. Qed.

(* the row of a member of group a after the merge: a dash wherever the op is "gap in a" *)
Fixpoint weave_a (ops : list opk) (row : list Z) : list Z :=
  match ops with
  | [] => []
  | OGA :: t => dash :: weave_a t row
  | ONONE :: t => weave_a t row
  | _ :: t => match row with x :: r => x :: weave_a t r | [] => [] end
  end.

Fixpoint weave_b (ops : list opk) (row : list Z) : list Z :=
  match ops with
  | [] => []
  | OGB :: t => dash :: weave_b t row
  | ONONE :: t => weave_b t row
  | _ :: t => match row with x :: r => x :: weave_b t r | [] => [] end
  end.

Definition cnt (k : opk -> bool) (ops : list opk) : nat := length (filter k ops).
Definition is_M o := match o with OM => true | _ => false end.
Definition is_GA o := match o with OGA => true | _ => false end.
Definition is_GB o := match o with OGB => true | _ => false end.
Definition is_NONE o := match o with ONONE => true | _ => false end.

Lemma cnt_cons k o l : cnt k (o :: l) = Nat.b2n (k o) + cnt k l.
Proof. unfold cnt. simpl. destruct (k o); reflexivity. Qed.
Lemma cnt_app k a b : cnt k (a ++ b) = cnt k a + cnt k b.
Proof. unfold cnt. rewrite filter_app, app_length. reflexivity. Qed.

Definition ops_fit (ops : list opk) (la lb : nat) : Prop :=
  cnt is_M ops + cnt is_GB ops = la /\ cnt is_M ops + cnt is_GA ops = lb /\ cnt is_NONE ops = 0.

Lemma ops_fit_len ks wa wb : ops_fit ks wa wb -> cnt is_M ks + cnt is_GA ks + cnt is_GB ks = length ks.
Proof.
  intros (_ & _ & HN). revert HN. unfold cnt.
  induction ks as [|o ks IH]; simpl; auto. destruct o; simpl; intros; try lia.
Qed.

Lemma expand_gapvec_a : forall ops c row,
  cnt is_M ops + cnt is_GB ops = length row -> cnt is_NONE ops = 0 ->
  expand (gapvec_a ops c) row = repeat dash c ++ weave_a ops row.
Proof.
  unfold cnt.
  induction ops as [|o ops IH]; intros c row H HN.
  - simpl in *. destruct row; [|simpl in H; lia]. simpl. rewrite app_nil_r. reflexivity.
  - destruct o; simpl in H, HN; cbn [gapvec_a weave_a].
    + destruct row as [|x row]; [simpl in H; lia|]. rewrite expand_cons_cons.
      rewrite IH by (simpl in H; lia). reflexivity.
    + rewrite IH by assumption. cbn [repeat]. rewrite repeat_cons, <- app_assoc. reflexivity.
    + destruct row as [|x row]; [simpl in H; lia|]. rewrite expand_cons_cons.
      rewrite IH by (simpl in H; lia). reflexivity.
    + lia.
Qed.

Lemma gapvec_a_length : forall ops c, cnt is_NONE ops = 0 ->
  length (gapvec_a ops c) = S (cnt is_M ops + cnt is_GB ops).
Proof.
  unfold cnt. induction ops as [|o ops IH]; intros c HN; simpl in *; auto.
  destruct o; simpl in *; rewrite ?IH; try lia.
Qed.

Lemma sum_gapvec_a : forall ops c, sum_nat (gapvec_a ops c) = c + cnt is_GA ops.
Proof.
  unfold cnt. induction ops as [|o ops IH]; intro c; simpl; [lia|].
  destruct o; simpl; rewrite IH; lia.
Qed.

Lemma weave_a_insertion ops la lb row : ops_fit ops la lb -> length row = la ->
  weave_a ops row = expand (gapvec_a ops 0) row /\ length (gapvec_a ops 0) = S (length row) /\
  length row + sum_nat (gapvec_a ops 0) = length ops.
Proof.
  intros Hfit <-. pose proof (ops_fit_len _ _ _ Hfit) as Hl. destruct Hfit as (F1 & _ & F3).
  split; [symmetry; apply (expand_gapvec_a ops 0); assumption|].
  rewrite gapvec_a_length, sum_gapvec_a by assumption. lia.
Qed.

Theorem member_a_row : forall ops g res la lb,
  length g = S (length res) -> ops_fit ops la lb -> length (expand g res) = la ->
  expand (update_gaps g (gapvec_a ops 0)) res = weave_a ops (expand g res).
Proof.
  intros ops g res la lb Hg Hfit Hl. destruct (weave_a_insertion _ _ _ _ Hfit Hl) as (-> & L & _).
  apply update_gaps_refines; assumption.
Qed.

(* group b is group a with the two gap kinds exchanged *)
Definition opswap (o : opk) : opk := match o with OGA => OGB | OGB => OGA | _ => o end.

Lemma weave_b_swap : forall ops row, weave_b ops row = weave_a (map opswap ops) row.
Proof. induction ops as [|[] ops IH]; intros [|x row]; simpl; rewrite ?IH; reflexivity. Qed.

Lemma gapvec_b_swap : forall ops c, gapvec_b ops c = gapvec_a (map opswap ops) c.
Proof. induction ops as [|[] ops IH]; intro c; simpl; rewrite ?IH; reflexivity. Qed.

Lemma ops_fit_swap ops la lb : ops_fit ops la lb -> ops_fit (map opswap ops) lb la.
Proof.
  assert (cnt is_M (map opswap ops) = cnt is_M ops /\ cnt is_GA (map opswap ops) = cnt is_GB ops /\
          cnt is_GB (map opswap ops) = cnt is_GA ops /\ cnt is_NONE (map opswap ops) = cnt is_NONE ops)
    as (E1 & E2 & E3 & E4).
  { induction ops as [|[] ops (I1 & I2 & I3 & I4)]; cbn [map opswap]; rewrite ?cnt_cons, ?I1, ?I2, ?I3, ?I4; auto. }
  unfold ops_fit. rewrite E1, E2, E3, E4. tauto.
Qed.

Lemma weave_b_insertion ops la lb row : ops_fit ops la lb -> length row = lb ->
  weave_b ops row = expand (gapvec_b ops 0) row /\ length (gapvec_b ops 0) = S (length row) /\
  length row + sum_nat (gapvec_b ops 0) = length ops.
Proof.
  intros Hfit Hl. rewrite weave_b_swap, gapvec_b_swap, <- (map_length opswap ops).
  exact (weave_a_insertion _ _ _ _ (ops_fit_swap _ _ _ Hfit) Hl).
Qed.

Theorem member_b_row : forall ops g res la lb,
  length g = S (length res) -> ops_fit ops la lb -> length (expand g res) = lb ->
  expand (update_gaps g (gapvec_b ops 0)) res = weave_b ops (expand g res).
Proof.
  intros ops g res la lb Hg Hfit Hl. rewrite weave_b_swap, gapvec_b_swap.
  exact (member_a_row _ _ _ _ _ Hg (ops_fit_swap _ _ _ Hfit) Hl).
Qed.

Local Open Scope Z_scope.
Definition is_dash (c : Z) : bool := c =? dash.
Lemma isalpha_dash : isalpha dash = false. Proof. reflexivity. Qed.
Definition degap (row : list Z) : list Z := filter (fun c => negb (is_dash c)) row.

Lemma degap_cons x l : degap (x :: l) = if negb (is_dash x) then x :: degap l else degap l.
Proof. reflexivity. Qed.
Arguments degap : simpl never.

Lemma degap_repeat_dash k l : degap (repeat dash k ++ l) = degap l.
Proof. induction k; simpl; auto. Qed.

Lemma degap_expand : forall res g, degap (expand g res) = degap res.
Proof.
  induction res as [|r res IH]; intros [|g0 g]; try reflexivity; cbn [expand].
  - rewrite <- (app_nil_r (repeat dash g0)). apply degap_repeat_dash.
  - rewrite degap_repeat_dash, !degap_cons, IH. reflexivity.
Qed.

Lemma degap_id (s : list Z) : Forall (fun c => c <> dash) s -> degap s = s.
Proof.
  induction 1 as [|c s Hc Hs IH]; [reflexivity|].
  rewrite degap_cons. unfold is_dash. destruct (Z.eqb_spec c dash); [contradiction|]. simpl. rewrite IH. reflexivity.
Qed.

Local Open Scope nat_scope.
Fixpoint and_mask (a b : list bool) : list bool :=
  match a, b with
  | x :: a', y :: b' => (x && y) :: and_mask a' b'
  | _, _ => []
  end.

Definition row_mask (row : list Z) : list bool := map is_dash row.

Fixpoint block_mask (first : list Z) (rest : list (list Z)) : list bool :=
  match rest with
  | [] => row_mask first
  | r :: rest' => and_mask (row_mask first) (block_mask r rest')
  end.

Fixpoint drop_masked {A} (m : list bool) (row : list A) : list A :=
  match m, row with
  | true :: m', _ :: r => drop_masked m' r
  | false :: m', x :: r => x :: drop_masked m' r
  | _, _ => []
  end.

Definition strip_allgap (rows : list (list Z)) : list (list Z) :=
  match rows with
  | [] => []
  | r :: rest => map (drop_masked (block_mask r rest)) rows
  end.

Lemma and_mask_length : forall a b, length a = length b -> length (and_mask a b) = length a.
Proof. induction a; intros [|y b] H; simpl in *; try lia; auto. Qed.

Lemma block_mask_length : forall rest first w,
  length first = w -> Forall (fun r => length r = w) rest -> length (block_mask first rest) = w.
Proof.
  induction rest as [|r rest IH]; intros first w Hf Hr; simpl.
  - unfold row_mask. rewrite map_length. auto.
  - inversion Hr; subst. rewrite and_mask_length; unfold row_mask; rewrite map_length; auto.
    symmetry. apply IH; auto.
Qed.

(* [expand] with any filler, so that the mask of an expanded row is the expanded mask of the row:
   inserted columns are all-gap *)
Section Fill.
Context {A : Type} (d : A).
Fixpoint insert_cols (g : list nat) (row : list A) : list A :=
  match row, g with
  | r :: row', gj :: g' => repeat d gj ++ r :: insert_cols g' row'
  | [], gl :: _ => repeat d gl
  | _, [] => row
  end.
End Fill.

Lemma expand_insert_cols g row : expand g row = insert_cols dash g row.
Proof. reflexivity. Qed.

Lemma map_repeat {A B} (f : A -> B) d k : map f (repeat d k) = repeat (f d) k.
Proof. induction k; simpl; congruence. Qed.

Lemma map_insert_cols {A B} (f : A -> B) d : forall row g,
  map f (insert_cols d g row) = insert_cols (f d) g (map f row).
Proof.
  induction row as [|r row IH]; intros [|g0 g]; simpl; auto using map_repeat.
  rewrite map_app, map_repeat. simpl. rewrite IH. reflexivity.
Qed.

Lemma and_mask_repeat_true k a b :
  and_mask (repeat true k ++ a) (repeat true k ++ b) = repeat true k ++ and_mask a b.
Proof. induction k; simpl; congruence. Qed.

Lemma and_mask_insert : forall m1 m2 g, length m1 = length m2 ->
  and_mask (insert_cols true g m1) (insert_cols true g m2) = insert_cols true g (and_mask m1 m2).
Proof.
  induction m1 as [|x m1 IH]; intros [|y m2] [|g0 g] H; simpl in *; try discriminate; auto.
  - rewrite <- (app_nil_r (repeat true g0)). rewrite and_mask_repeat_true. reflexivity.
  - rewrite and_mask_repeat_true. simpl. rewrite IH by lia. reflexivity.
Qed.

Lemma drop_repeat_true {A} (d : A) k m l :
  drop_masked (repeat true k ++ m) (repeat d k ++ l) = drop_masked m l.
Proof. induction k; simpl; auto. Qed.

Lemma drop_insert {A} (d : A) : forall m row g, length m = length row -> length g = S (length row) ->
  drop_masked (insert_cols true g m) (insert_cols d g row) = drop_masked m row.
Proof.
  induction m as [|x m IH]; intros [|y row] [|g0 g] Hm Hg; simpl in *; try discriminate; try lia.
  - destruct g; simpl in Hg; try lia. rewrite <- (app_nil_r (repeat true g0)), <- (app_nil_r (repeat d g0)).
    rewrite drop_repeat_true. reflexivity.
  - rewrite drop_repeat_true. simpl. rewrite IH by lia. reflexivity.
Qed.

Lemma block_mask_expand g : forall rest first, Forall (fun r => length r = length first) rest ->
  block_mask (expand g first) (map (expand g) rest) = insert_cols true g (block_mask first rest).
Proof.
  induction rest as [|r rest IH]; intros first Hr; simpl.
  - unfold row_mask. rewrite expand_insert_cols. apply map_insert_cols.
  - inversion Hr as [|? ? H1 H2]; subst. rewrite <- H1 in H2.
    rewrite IH by assumption.
    unfold row_mask at 1. rewrite expand_insert_cols, map_insert_cols. apply and_mask_insert.
    unfold row_mask. rewrite map_length, (block_mask_length rest r (length r)); auto.
Qed.

Theorem strip_expand g rows w : Forall (fun r => length r = w) rows -> length g = S w ->
  strip_allgap (map (expand g) rows) = strip_allgap rows.
Proof.
  destruct rows as [|first rest]; [reflexivity|]. intros Hall Hg. inversion Hall as [|? ? Hf Hr]; subst.
  assert (length (block_mask first rest) = length first) as Hm by (apply block_mask_length; auto).
  cbn [strip_allgap map]. rewrite block_mask_expand by assumption. rewrite map_map.
  change (?a :: map ?f rest = ?b :: map ?h rest) with (map f (first :: rest) = map h (first :: rest)).
  apply map_ext_in. intros r Hin. rewrite Forall_forall in Hall. rewrite expand_insert_cols.
  apply drop_insert; rewrite ?Hm; auto using eq_sym. rewrite (Hall r Hin). assumption.
Qed.

Definition insertions (gs : list (list nat)) (row : list Z) : list Z := fold_left (fun r g => expand g r) gs row.
Fixpoint ins_fit (w : nat) (gs : list (list nat)) : Prop :=
  match gs with [] => True | g :: gs' => length g = S w /\ ins_fit (w + sum_nat g) gs' end.

Lemma ins_fit_cons g gs row : length g = S (length row) -> ins_fit (length (expand g row)) gs ->
  ins_fit (length row) (g :: gs).
Proof. intros Hg H. rewrite expand_length in H by assumption. split; assumption. Qed.

Lemma strip_insertions : forall gs w rows, ins_fit w gs -> Forall (fun r => length r = w) rows ->
  strip_allgap (map (insertions gs) rows) = strip_allgap rows.
Proof.
  induction gs as [|g gs IH]; intros w rows Hfit Hw; [rewrite map_id; reflexivity|]. destruct Hfit as (Hg & Hfit).
  change (insertions (g :: gs)) with (fun r => insertions gs (expand g r)). rewrite <- (map_map (expand g)).
  rewrite (IH _ _ Hfit); [exact (strip_expand g rows w Hw Hg)|].
  rewrite Forall_map. eapply Forall_impl; [|exact Hw]. cbv beta. intros r <-. apply expand_length. exact Hg.
Qed.

Definition memb (i : nat) (l : list nat) : bool := existsb (Nat.eqb i) l.

Lemma memb_In i l : memb i l = true <-> In i l.
Proof.
  unfold memb. rewrite existsb_exists. split.
  - intros (x & Hx & E). apply Nat.eqb_eq in E. subst; auto.
  - intro H. exists i. split; auto. apply Nat.eqb_refl.
Qed.

Lemma upd_member_length ng ms gaps : length (upd_member ng ms gaps) = length gaps.
Proof. unfold upd_member. rewrite map_length, combine_length, seq_length. lia. Qed.

Lemma upd_member_nth ng ms gaps i : i < length gaps ->
  nth i (upd_member ng ms gaps) [] =
  if memb i ms then update_gaps (nth i gaps []) ng else nth i gaps [].
Proof.
  intro Hi. unfold upd_member.
  set (f := fun ig : nat * list nat => if existsb (Nat.eqb (fst ig)) ms then update_gaps (snd ig) ng else snd ig).
  replace (@nil nat) with (f (length gaps, [])) at 1.
  2:{ unfold f. simpl. destruct (existsb _ ms); reflexivity. }
  rewrite map_nth. rewrite combine_nth by (rewrite seq_length; reflexivity).
  rewrite seq_nth by assumption. unfold f. simpl. reflexivity.
Qed.

Lemma upd_member_nth_length ng ms gaps i : length (nth i (upd_member ng ms gaps) []) = length (nth i gaps []).
Proof.
  destruct (Nat.lt_ge_cases i (length gaps)) as [Hi|Hi].
  - rewrite upd_member_nth by exact Hi. destruct (memb i ms); [apply update_gaps_length|reflexivity].
  - rewrite !nth_overflow by (rewrite ?upd_member_length; exact Hi). reflexivity.
Qed.

Lemma set_nth_length {A} : forall k (x : A) l, length (set_nth k x l) = length l.
Proof. induction k; intros x [|h t]; simpl; auto. Qed.

Lemma set_nth_same {A} : forall k (x d : A) l, k < length l -> nth k (set_nth k x l) d = x.
Proof. induction k; intros x d [|h t] H; simpl in *; try lia; auto. apply IHk; lia. Qed.

Lemma set_nth_other {A} : forall k j (x d : A) l, j <> k -> nth j (set_nth k x l) d = nth j l d.
Proof.
  induction k; intros j x d [|h t] H; simpl; auto; destruct j; try lia; auto.
Qed.

Lemma set_nth_app {X} (pre : list X) v y post : set_nth (length pre) v (pre ++ y :: post) = pre ++ v :: post.
Proof. induction pre as [|p pre IH]; [reflexivity|]. cbn [length app set_nth]. rewrite IH. reflexivity. Qed.

Lemma merge_step_sip_length st a b c ops : length (w_sip (merge_step st a b c ops)) = length (w_sip st).
Proof. unfold merge_step. cbn [w_sip]. apply set_nth_length. Qed.

Definition act_after (act : list nat) (a b c : nat) : list nat :=
  c :: remove Nat.eq_dec a (remove Nat.eq_dec b act).

Lemma in_act_after act a b c x :
  In x (act_after act a b c) <-> x = c \/ (In x act /\ x <> a /\ x <> b).
Proof.
  unfold act_after. simpl. split.
  - intros [<-|H]; auto. apply in_remove in H as [H Hx]. apply in_remove in H as [H Hx']. auto.
  - intros [->|(H & H1 & H2)]; auto. right. apply in_in_remove; auto. apply in_in_remove; auto.
Qed.

Section Assembly.
Variable seqs : list (list Z).
Notation n := (length seqs).

Definition row_of (st : wstate) (i : nat) : list Z := expand (nth i (w_gaps st) []) (nth i seqs []).
Definition members (st : wstate) (x : nat) : list nat := nth x (w_sip st) [].
Definition width_ok (st : wstate) (x w : nat) : Prop :=
  forall i, In i (members st x) -> length (row_of st i) = w.

Record Inv (st : wstate) (act : list nat) : Prop := {
  inv_len : length (w_gaps st) = n;
  inv_glen : forall i, i < n -> length (nth i (w_gaps st) []) = S (length (nth i seqs []));
  inv_mem : forall x i, In x act -> In i (members st x) -> i < n;
  inv_disj : forall x y i, In x act -> In y act -> In i (members st x) -> In i (members st y) -> x = y
}.

Lemma degap_row_of st i : degap (row_of st i) = degap (nth i seqs []).
Proof. apply degap_expand. Qed.

Lemma memb_other st act x y i : Inv st act -> In x act -> In y act -> x <> y ->
  In i (members st x) -> memb i (members st y) = false.
Proof.
  intros HI Hx Hy Hxy Hi. destruct (memb i (members st y)) eqn:E; [|reflexivity].
  apply memb_In in E. destruct Hxy. exact (inv_disj _ _ HI x y i Hx Hy Hi E).
Qed.

Lemma merge_step_rows st act a b c ops wa wb :
  Inv st act -> In a act -> In b act -> a <> b ->
  width_ok st a wa -> width_ok st b wb -> ops_fit (map op_kind ops) wa wb ->
  forall i, i < n ->
    row_of (merge_step st a b c ops) i =
      if memb i (members st a) then weave_a (map op_kind ops) (row_of st i)
      else if memb i (members st b) then weave_b (map op_kind ops) (row_of st i)
      else row_of st i.
Proof.
  intros HI Ha Hb Hab Wa Wb Hfit i Hi. pose proof HI as [Hlen Hglen _ _].
  unfold row_of, merge_step, make_seq. cbn [w_gaps].
  fold (members st a). fold (members st b).
  rewrite upd_member_nth by (rewrite upd_member_length; lia).
  rewrite upd_member_nth by lia.
  destruct (memb i (members st a)) eqn:Ea.
  - apply memb_In in Ea. rewrite (memb_other st act a b i) by assumption.
    apply (member_a_row _ _ _ wa wb); auto. exact (Wa i Ea).
  - destruct (memb i (members st b)) eqn:Eb; [|reflexivity]. apply memb_In in Eb.
    apply (member_b_row _ _ _ wa wb); auto. exact (Wb i Eb).
Qed.

Lemma members_step_c st a b c ops : c < length (w_sip st) ->
  members (merge_step st a b c ops) c = rev (members st a) ++ rev (members st b).
Proof. intro H. unfold members, merge_step. cbn [w_sip]. apply set_nth_same; auto. Qed.

Lemma members_step_c_in st a b c ops i : c < length (w_sip st) ->
  In i (members (merge_step st a b c ops) c) <-> In i (members st a) \/ In i (members st b).
Proof. intro H. rewrite members_step_c, in_app_iff, <- !in_rev by exact H. reflexivity. Qed.

Lemma members_step_other st a b c ops x : x <> c ->
  members (merge_step st a b c ops) x = members st x.
Proof. intro H. unfold members, merge_step. cbn [w_sip]. apply set_nth_other; auto. Qed.

(* what one merge asks of the state: the premises of valid_run's step *)
Record step_ok (st : wstate) (act : list nat) (a b c : nat) (ops : list Z) (wa wb : nat) : Prop := {
  so_a : In a act; so_b : In b act; so_ab : a <> b; so_c : ~ In c act; so_sip : c < length (w_sip st);
  so_wa : width_ok st a wa; so_wb : width_ok st b wb; so_fit : ops_fit (map op_kind ops) wa wb
}.

Section Step.
Variables (st : wstate) (act : list nat) (a b c : nat) (ops : list Z) (wa wb : nat).
Hypothesis HI : Inv st act.
Hypothesis Hs : step_ok st act a b c ops wa wb.
Notation st' := (merge_step st a b c ops).

Lemma merge_row_a i : In i (members st a) -> row_of st' i = weave_a (map op_kind ops) (row_of st i).
Proof.
  intro Hi. destruct Hs. rewrite (merge_step_rows st act a b c ops wa wb) by eauto using inv_mem.
  rewrite (proj2 (memb_In _ _) Hi). reflexivity.
Qed.

Lemma merge_row_b i : In i (members st b) -> row_of st' i = weave_b (map op_kind ops) (row_of st i).
Proof.
  intro Hi. destruct Hs. rewrite (merge_step_rows st act a b c ops wa wb) by eauto using inv_mem.
  rewrite (memb_other st act b a i), (proj2 (memb_In _ _) Hi) by auto. reflexivity.
Qed.

Lemma merge_row_other x i : In x act -> x <> a -> x <> b -> In i (members st x) -> row_of st' i = row_of st i.
Proof.
  intros Hx Hxa Hxb Hi. destruct Hs. rewrite (merge_step_rows st act a b c ops wa wb) by eauto using inv_mem.
  rewrite (memb_other st act x a i), (memb_other st act x b i) by auto. reflexivity.
Qed.

Lemma merge_step_width : width_ok st' c (length ops).
Proof.
  intros i Hi. pose proof Hs as [_ _ _ _ Hcl Wa Wb Hfit]. rewrite <- (map_length op_kind ops).
  apply members_step_c_in in Hi; [|exact Hcl]. destruct Hi as [Hi|Hi].
  - rewrite merge_row_a by exact Hi. destruct (weave_a_insertion _ _ _ _ Hfit (Wa i Hi)) as (-> & L & <-).
    apply expand_length. exact L.
  - rewrite merge_row_b by exact Hi. destruct (weave_b_insertion _ _ _ _ Hfit (Wb i Hi)) as (-> & L & <-).
    apply expand_length. exact L.
Qed.

Lemma merge_step_inv : Inv st' (act_after act a b c).
Proof.
  pose proof Hs as [Ha Hb Hab Hc Hcl _ _ _]. pose proof HI as [Hlen Hglen Hmem Hdisj].
  assert (O : forall x i, In x (act_after act a b c) -> In i (members st' x) ->
            exists y, In y act /\ In i (members st y) /\ (x = c /\ (y = a \/ y = b) \/ x = y /\ y <> a /\ y <> b)).
  { intros x i Hx Hi. apply in_act_after in Hx as [->|(Hx & Hxa & Hxb)].
    - apply members_step_c_in in Hi as [Hi|Hi]; [exists a|exists b|exact Hcl]; auto 6.
    - rewrite members_step_other in Hi by congruence. exists x. auto 6. }
  constructor.
  - unfold merge_step, make_seq. cbn [w_gaps]. rewrite !upd_member_length. exact Hlen.
  - intros i Hi. unfold merge_step, make_seq. cbn [w_gaps]. rewrite !upd_member_nth_length. exact (Hglen i Hi).
  - intros x i Hx Hi. destruct (O x i Hx Hi) as (y & Hy & Hiy & _). eauto.
  - intros x y i Hx Hy Hix Hiy. destruct (O x i Hx Hix) as (x0 & Hx0 & Hix0 & Ox). destruct (O y i Hy Hiy) as (y0 & Hy0 & Hiy0 & Oy).
    assert (x0 = y0) by eauto. intuition congruence.
Qed.
End Step.

Definition task := (nat * nat * nat * list Z)%type.

Inductive valid_run : wstate -> list nat -> list task -> Prop :=
| vr_nil st act : valid_run st act []
| vr_cons st act a b c ops rest wa wb :
    In a act -> In b act -> a <> b -> ~ In c act -> c < length (w_sip st) ->
    width_ok st a wa -> width_ok st b wb -> ops_fit (map op_kind ops) wa wb ->
    valid_run (merge_step st a b c ops) (act_after act a b c) rest ->
    valid_run st act ((a, b, c, ops) :: rest).

Definition run_from (st : wstate) (tasks : list task) : wstate :=
  fold_left (fun st t => let '(a, b, c, ops) := t in merge_step st a b c ops) tasks st.

Lemma run_merges_from lens tasks : run_merges lens tasks = run_from (init_wstate lens) tasks.
Proof. reflexivity. Qed.

Lemma valid_run_cons_inv st act a b c ops rest : valid_run st act ((a, b, c, ops) :: rest) ->
  exists wa wb, step_ok st act a b c ops wa wb /\ valid_run (merge_step st a b c ops) (act_after act a b c) rest.
Proof. intro H. inversion H; subst. eexists _, _. split; [constructor|]; eassumption. Qed.

(* Whatever the tree and the (fitting) paths: the rows of an active group evolve by one common
   sequence of column insertions. *)
Theorem run_inserts_uniformly : forall tasks st act,
  Inv st act -> valid_run st act tasks ->
  forall x, In x act -> exists gs, forall i, In i (members st x) ->
    ins_fit (length (row_of st i)) gs /\ row_of (run_from st tasks) i = insertions gs (row_of st i).
Proof.
  induction tasks as [|[[[a b] c] ops] tasks IH]; intros st act HI HV x Hx.
  - exists []. intros i _. split; [exact I|reflexivity].
  - apply valid_run_cons_inv in HV as (wa & wb & Hs & HV').
    pose proof (merge_step_inv _ _ _ _ _ _ _ _ HI Hs) as HI'. pose proof Hs as [Ha Hb Hab Hc Hcl Wa Wb Hfit].
    specialize (IH _ _ HI' HV'). change (run_from st ((a, b, c, ops) :: tasks)) with (run_from (merge_step st a b c ops) tasks).
    destruct (Nat.eq_dec x a) as [->|Hxa]; [|destruct (Nat.eq_dec x b) as [->|Hxb]].
    + (* rows of a: first the a-side insertion of this merge, then whatever happens to c *)
      destruct (IH c) as (gs & Hgs); [apply in_act_after; auto|].
      exists (gapvec_a (map op_kind ops) 0 :: gs). intros i Hi.
      destruct (Hgs i) as (G1 & G2); [apply members_step_c_in; auto|].
      rewrite (merge_row_a _ _ _ _ _ _ _ _ HI Hs i Hi) in G1, G2.
      destruct (weave_a_insertion _ _ _ _ Hfit (Wa i Hi)) as (E & L & _). rewrite E in G1, G2.
      split; [apply ins_fit_cons; assumption|exact G2].
    + destruct (IH c) as (gs & Hgs); [apply in_act_after; auto|].
      exists (gapvec_b (map op_kind ops) 0 :: gs). intros i Hi.
      destruct (Hgs i) as (G1 & G2); [apply members_step_c_in; auto|].
      rewrite (merge_row_b _ _ _ _ _ _ _ _ HI Hs i Hi) in G1, G2.
      destruct (weave_b_insertion _ _ _ _ Hfit (Wb i Hi)) as (E & L & _). rewrite E in G1, G2.
      split; [apply ins_fit_cons; assumption|exact G2].
    + destruct (IH x) as (gs & Hgs); [apply in_act_after; auto|].
      exists gs. intros i Hi. rewrite <- (merge_row_other _ _ _ _ _ _ _ _ HI Hs x i) by assumption.
      apply Hgs. rewrite members_step_other; [exact Hi|]. intros ->. contradiction.
Qed.

(* C10: the rows of any set of sequences that lies inside one active group only ever receive
   whole columns of gaps: stripped of its all-gap columns the block never changes again. *)
Theorem run_preserves_blocks : forall tasks st act,
  Inv st act -> valid_run st act tasks ->
  forall S x w, In x act -> incl S (members st x) -> width_ok st x w ->
  strip_allgap (map (row_of (run_from st tasks)) S) = strip_allgap (map (row_of st) S).
Proof.
  intros tasks st act HI HV S x w Hx HS Wx. destruct S as [|i0 S0] eqn:ES; [reflexivity|]. rewrite <- ES in *.
  destruct (run_inserts_uniformly tasks st act HI HV x Hx) as (gs & Hgs).
  rewrite (map_ext_in _ (fun i => insertions gs (row_of st i))) by (intros i Hi; apply Hgs, HS, Hi).
  rewrite <- (map_map (row_of st) (insertions gs)). apply (strip_insertions gs w).
  - rewrite <- (Wx i0) by (apply HS; subst S; left; reflexivity). apply Hgs, HS. subst S. left. reflexivity.
  - rewrite Forall_map, Forall_forall. intros i Hi. apply Wx, HS, Hi.
Qed.

End Assembly.
