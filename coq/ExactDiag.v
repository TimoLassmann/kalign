(* C08 in exact arithmetic: the kernel text of Kernels.v (passes, meetup, Hirschberg controller), run over integers
   extended with -infinity instead of binary32, returns the DIAGONAL on identical operands - for every length, for any
   cost record bounded by potentials (the hypotheses of Section Diag).  ExactDiagInst.v derives those from a condition on
   the scoring scheme: every residue's self-score outweighs the gap costs (2*gamma <= s(y,y) + 2*g for a gamma > 0) and
   2*s(x,y) <= s(x,x) + s(y,y).  The proof is a potential argument that never multiplies two unknowns. *)
From Coq Require Import ZArith List Bool Lia.
From KV Require Import ListFacts Kernels KernelProofs CostProofs.
Import ListNotations.
Local Open Scope Z_scope.

Definition XT := option Z.
Definition xadd (x y : XT) : XT := match x, y with Some a, Some b => Some (a + b) | _, _ => None end.
Definition xmul (x y : XT) : XT := match x, y with Some a, Some b => Some (a * b) | _, _ => None end.
Definition xneg (x : XT) : XT := match x with Some a => Some (- a) | None => None end.
Definition xgt (x y : XT) : bool := match x, y with Some a, Some b => b <? a | Some _, None => true | None, _ => false end.
Definition xnonzero (x : XT) : bool := match x with Some 0 => false | _ => true end.

Notation "x +! y" := (xadd x y) (at level 50, left associativity).

Definition nonpos (x : XT) : Prop := exists g, x = Some g /\ g <= 0.
Definition gaps_below (e o t : XT) (B : Z) : Prop :=
  exists g1 g2 g3, e = Some g1 /\ o = Some g2 /\ t = Some g3 /\ 2 * g1 <= B /\ 2 * g2 <= B /\ 2 * g3 <= B.
Lemma nonpos_neg g : 0 <= g -> nonpos (Some (- g)).
Proof. intros H. exists (- g). split; [reflexivity|lia]. Qed.

(* the tie-break term of the meetup is any non-negative function of (startb, endb, i); kalign's is
   |(endb - startb)/2 + startb - i| / 1000, i.e. |endb + startb - 2 i| in units of 1/2000 *)
Section TB.
Variable tb : Z -> Z -> Z -> Z.
Hypothesis tb_nonneg : forall a b i, 0 <= tb a b i.
Definition alg_X : alg := mkAlg XT xadd xmul xneg xgt xnonzero (Some 0) None (fun z => Some z) (fun a b i => Some (tb a b i)).

Definition ub2 (x : XT) (u : Z) : Prop := match x with None => True | Some v => 2 * v <= u end.

Lemma ub2_mono x u u' : ub2 x u -> u <= u' -> ub2 x u'.
Proof. unfold ub2. destruct x; intros; [lia|trivial]. Qed.
Lemma ub2_mx x y u : ub2 x u -> ub2 y u -> ub2 (mx alg_X x y) u.
Proof. unfold mx. cbn [gt alg_X]. destruct (xgt x y); trivial. Qed.
Lemma ub2_add x g u : ub2 x u -> ub2 (x +! Some g) (u + 2 * g).
Proof. unfold ub2, xadd. destruct x; intros; [lia|trivial]. Qed.
Lemma ub2_none u : ub2 None u. Proof. exact I. Qed.

Lemma mx_first v y : ub2 y (2 * v) -> mx alg_X (Some v) y = Some v.
Proof.
  intros H. unfold mx. cbn [gt alg_X xgt]. destruct y as [b|]; [|reflexivity]. unfold ub2 in H.
  destruct (Z.ltb_spec b v); [reflexivity|f_equal; lia].
Qed.

Lemma Forall2_nth_intro {X Y} (P : X -> Y -> Prop) (d1 : X) (d2 : Y) : forall l1 l2, length l1 = length l2 ->
  (forall t, (t < length l1)%nat -> P (nth t l1 d1) (nth t l2 d2)) -> Forall2 P l1 l2.
Proof.
  induction l1 as [|x l1 IH]; intros [|y l2] L H; try discriminate; [constructor|].
  constructor; [apply (H 0%nat); cbn [length]; lia|]. apply IH; [cbn [length] in L; lia|]. intros t Ht. apply (H (S t)). cbn [length]. lia.
Qed.
Lemma nth_error_skipn' {X} : forall s t (l : list X), nth_error (skipn s l) t = nth_error l (s + t).
Proof. exact (@nth_error_skipn X). Qed.
Lemma nth_error_firstn_lt {X} : forall k i (l : list X), (i < k)%nat -> nth_error (firstn k l) i = nth_error l i.
Proof. exact (@ListFacts.nth_error_firstn_lt X). Qed.
Lemma split_at_nth {X} (d : X) m (l : list X) : (m < length l)%nat -> l = firstn m l ++ nth m l d :: skipn (S m) l.
Proof. intros H. rewrite <- (skipn_nth_cons d) by exact H. symmetry. apply firstn_skipn. Qed.

Definition sum_by {X} (p : X -> Z) (l : list X) : Z := fold_right (fun x acc => p x + acc) 0 l.
Lemma sum_by_app {X} (p : X -> Z) a b : sum_by p (a ++ b) = sum_by p a + sum_by p b.
Proof. unfold sum_by. induction a as [|x a IH]; cbn [app fold_right]; [lia|]. rewrite IH. lia. Qed.
Lemma sum_by_rev {X} (p : X -> Z) l : sum_by p (rev l) = sum_by p l.
Proof. induction l as [|x l IH]; [reflexivity|]. cbn [rev]. rewrite sum_by_app, IH. unfold sum_by. cbn [fold_right]. lia. Qed.
Lemma sum_by_map {X Y} (p : X -> Z) (p' : Y -> Z) : forall a b, map p a = map p' b -> sum_by p a = sum_by p' b.
Proof. induction a as [|x a IH]; intros [|y b] H; try discriminate; [reflexivity|]. injection H as H1 H2. unfold sum_by. cbn [fold_right]. rewrite H1. f_equal. apply IH, H2. Qed.

Lemma sum_by_split_rev {X} (p : X -> Z) l l' j : map p l' = map p (rev l) -> (j <= length l)%nat ->
  sum_by p (firstn j l) + sum_by p (firstn (length l - j) l') = sum_by p l.
Proof.
  intros H Hj. rewrite (sum_by_map p p (firstn (length l - j) l') (firstn (length l - j) (rev l))) by (rewrite <- !firstn_map, H; reflexivity).
  rewrite firstn_rev, sum_by_rev. replace (length l - (length l - j))%nat with j by lia. rewrite <- sum_by_app, firstn_skipn. reflexivity.
Qed.

(* Potentials: a row r carries pR r, a column c carries pC c.  A match gains at most half of pR r + pC c (Hmatch_ub),
   and exactly that, eR r, on a pair related by dpair (Hmatch_dg); every gap step loses at least gam against half the
   potential of what it skips (Hga, Hgb).  [ub2 x u] is 2 * x <= u (doubled so that nothing is halved; -infinity is
   below everything).  [cellP i j B cl], THE invariant: B being the potentials of the rows and columns consumed on the
   way to row i, column j, the three values of the cell are at most B/2 - gam, the match value B/2 on the diagonal and
   equal to it.  [bnds_ok b cols bnds]: bnds are the running sums of pC from b; [row_ok i j PRi bnds cells]: the cells of
   row i from column j on satisfy cellP with B = PRi (the rows) + the bound of their column. *)
Section Diag.
Variables R C : Type.
Variable K : costs alg_X R C.
Variable pR : R -> Z.
Variable pC : C -> Z.
Variable eR : R -> Z.
Variable gam : Z.
Variable dpair : R -> C -> Prop.
Hypothesis Hgam : 0 < gam.
Hypothesis Hmatch_ub : forall r c x u, ub2 x u -> ub2 (k_match alg_X R C K r c x) (u + pR r + pC c).
Hypothesis Hmatch_dg : forall r c v, dpair r c -> k_match alg_X R C K r c (Some v) = Some (v + eR r) /\ 2 * eR r = pR r + pC c.
Hypothesis Hga : forall c, exists g1 g2 g3, k_ga_ext alg_X R C K c = Some g1 /\ k_ga_open alg_X R C K c = Some g2 /\ k_ga_text alg_X R C K c = Some g3 /\
  2 * g1 <= pC c - 2 * gam /\ 2 * g2 <= pC c - 2 * gam /\ 2 * g3 <= pC c - 2 * gam.
Hypothesis Hgb : forall r, exists g1 g2 g3, k_gb_ext alg_X R C K r = Some g1 /\ k_gb_open alg_X R C K r = Some g2 /\ k_gb_text alg_X R C K r = Some g3 /\
  2 * g1 <= pR r - 2 * gam /\ 2 * g2 <= pR r - 2 * gam /\ 2 * g3 <= pR r - 2 * gam.
Hypothesis Hga_a : forall c, exists g, k_ga_to_a alg_X R C K c = Some g /\ g <= 0.
Hypothesis Hgb_a : forall r, exists g, k_gb_to_a alg_X R C K r = Some g /\ g <= 0.

Notation cellX := (cell alg_X).

Definition cellP (i j : nat) (B : Z) (cl : cellX) : Prop :=
  ub2 (c_a alg_X cl) (B - (if (i =? j)%nat then 0 else 2 * gam)) /\ ub2 (c_ga alg_X cl) (B - 2 * gam) /\ ub2 (c_gb alg_X cl) (B - 2 * gam) /\
  (i = j -> exists e, c_a alg_X cl = Some e /\ 2 * e = B).

Fixpoint bnds_ok (b : Z) (cols : list C) (bnds : list Z) : Prop :=
  match cols, bnds with
  | c :: cols', b' :: bnds' => b' = b + pC c /\ bnds_ok b' cols' bnds'
  | [], [] => True
  | _, _ => False
  end.

Fixpoint row_ok (i j : nat) (PRi : Z) (bnds : list Z) (cells : list cellX) : Prop :=
  match cells, bnds with
  | cl :: cells', b :: bnds' => cellP i j (PRi + b) cl /\ row_ok i (S j) PRi bnds' cells'
  | [], [] => True
  | _, _ => False
  end.

Notation sumC := (sum_by pC).
Definition sumR (l : list R) : Z := fold_right (fun r acc => pR r + acc) 0 l.
Lemma sumR_rev l : sumR (rev l) = sumR l.
Proof. exact (sum_by_rev pR l). Qed.

Lemma cellP_dead i j B : i <> j -> cellP i j B (dead alg_X).
Proof. intros H. repeat split; try exact I. intro E; contradiction. Qed.

Definition cell_ub (cl : cellX) (Ba Bg : Z) : Prop := ub2 (c_a alg_X cl) Ba /\ ub2 (c_ga alg_X cl) Bg /\ ub2 (c_gb alg_X cl) Bg.

Lemma cellP_ub i j B cl : cellP i j B cl -> cell_ub cl B (B - 2 * gam).
Proof. intros (Ha & Hg & Hb & _). repeat split; try assumption. eapply ub2_mono; [exact Ha|]. destruct (i =? j)%nat; lia. Qed.
Lemma cellP_off i j B cl : i <> j -> cellP i j B cl -> cell_ub cl (B - 2 * gam) (B - 2 * gam).
Proof. intros N (Ha & Hg & Hb & _). apply Nat.eqb_neq in N. rewrite N in Ha. repeat split; assumption. Qed.
Lemma cellP_diag i B cl : cellP i i B cl -> exists e, c_a alg_X cl = Some e /\ 2 * e = B /\ cell_ub cl (2 * e) (B - 2 * gam).
Proof. intros (Ha & Hg & Hb & Hd). destruct (Hd eq_refl) as (e & Ee & E2). exists e. unfold cell_ub. rewrite Ee. repeat split; try assumption. unfold ub2. lia. Qed.

(* one step of a gap run: continued or opened (internal) or, along a border, extended at the terminal cost; the first
   premise is what Hga / Hgb say of a column / row with potential P *)
Lemma gap_step_ub (e o t : XT) P (internal : bool) run from B :
  gaps_below e o t (P - 2 * gam) -> ub2 run (B - 2 * gam) -> ub2 from B ->
  ub2 (if internal then mx alg_X (run +! e) (from +! o) else mx alg_X run from +! t) (B + P - 2 * gam).
Proof.
  intros (g1 & g2 & g3 & -> & -> & -> & L1 & L2 & L3) Hr Hf. destruct internal.
  - apply ub2_mx; (eapply ub2_mono; [apply ub2_add; eassumption|lia]).
  - eapply ub2_mono; [apply ub2_add, (ub2_mx run from B); [eapply ub2_mono; [exact Hr|lia]|exact Hf]|lia].
Qed.

Lemma mx3_bound i j B pa pga pgb x1 x2 : cellP i j B (pa, pga, pgb) -> nonpos x1 -> nonpos x2 ->
  ub2 (mx3 alg_X pa (pga +! x1) (pgb +! x2)) (B - (if (i =? j)%nat then 0 else 2 * gam)) /\
  (i = j -> exists e, mx3 alg_X pa (pga +! x1) (pgb +! x2) = Some e /\ 2 * e = B).
Proof.
  intros (Ha & Hga' & Hgb' & Hd) (g1 & -> & G1) (g2 & -> & G2). unfold c_a, c_ga, c_gb in *. cbn [fst snd] in *.
  assert (U1 : ub2 (pga +! Some g1) (B - 2 * gam)) by (eapply ub2_mono; [apply ub2_add; exact Hga'|lia]).
  assert (U2 : ub2 (pgb +! Some g2) (B - 2 * gam)) by (eapply ub2_mono; [apply ub2_add; exact Hgb'|lia]).
  split.
  - unfold mx3. apply ub2_mx; [apply ub2_mx; [exact Ha|]|]; (eapply ub2_mono; [eassumption|]; destruct (i =? j)%nat; lia).
  - intros E. destruct (Hd E) as (e & -> & E2). unfold mx3. rewrite !mx_first by (eapply ub2_mono; [eassumption|lia]).
    exists e. split; [reflexivity|exact E2].
Qed.

(* a cell of the new row from the cells diagonally before it (potential Bd) and above it (Bo); nga is the gap-a value
   the caller puts there (a continued run, or nothing in the last column) *)
Lemma new_cell_ok i' jm c r Bd Bo Bn pa pga pgb nga (o : cellX) (internal : bool) :
  Bo = Bd + pC c -> Bn = Bo + pR r ->
  cellP i' jm Bd (pa, pga, pgb) -> cellP i' (S jm) Bo o -> ub2 nga (Bn - 2 * gam) -> (i' = jm -> dpair r c) ->
  cellP (S i') (S jm) Bn
    (k_match alg_X R C K r c (mx3 alg_X pa (pga +! k_ga_to_a alg_X R C K c) (pgb +! k_gb_to_a alg_X R C K r)), nga,
     if internal then mx alg_X (c_gb alg_X o +! k_gb_ext alg_X R C K r) (c_a alg_X o +! k_gb_open alg_X R C K r)
     else mx alg_X (c_gb alg_X o) (c_a alg_X o) +! k_gb_text alg_X R C K r).
Proof.
  intros -> -> Hp Ho Hg Hd. destruct (mx3_bound _ _ _ _ _ _ _ _ Hp (Hga_a c) (Hgb_a r)) as [MB MD].
  destruct (cellP_ub _ _ _ _ Ho) as (Oa & _ & Ogb). split; [|split; [exact Hg|split]].
  - change (S i' =? S jm)%nat with (i' =? jm)%nat. eapply ub2_mono; [apply Hmatch_ub, MB|]. lia.
  - eapply ub2_mono; [exact (gap_step_ub _ _ _ _ internal _ _ _ (Hgb r) Ogb Oa)|lia].
  - intros E. injection E as E. destruct (MD E) as (e & Ee & E2). destruct (Hmatch_dg r c e (Hd E)) as (Em & Ed).
    exists (e + eR r). split; [cbn [c_a fst]; rewrite Ee; exact Em|lia].
Qed.

(* the cells of the new row right of column jm: d is the cell of the old row at column jm (potential PRo + b), l the
   cell of the new row below it, whose a and ga are the registers xa, xga of the C loop *)
Lemma row_cells_ok : forall cols old bnds i' jm b r PRo li (d l : cellX),
  bnds_ok b cols bnds -> row_ok i' (S jm) PRo bnds old ->
  cellP i' jm (PRo + b) d -> cell_ub l (PRo + pR r + b) (PRo + pR r + b - 2 * gam) ->
  (forall k c, nth_error cols k = Some c -> i' = (jm + k)%nat -> dpair r c) ->
  row_ok (S i') (S jm) (PRo + pR r) bnds (row_cells alg_X R C K li r (c_a alg_X d) (c_ga alg_X d) (c_gb alg_X d) (c_a alg_X l) (c_ga alg_X l) old cols).
Proof.
  induction cols as [|c cols IH]; intros old bnds i' jm b r PRo li d l Hb Ho Hp (Hxa & Hxga & _) Hd.
  - destruct bnds; [|contradiction]. destruct old; [exact I|contradiction].
  - destruct bnds as [|b' bnds]; [contradiction|]. destruct Hb as [-> Hb].
    destruct old as [|o old]; [contradiction|]. destruct Ho as [Ho Hold]. destruct d as [[pa pga] pgb].
    assert (Hd0 : i' = jm -> dpair r c) by (intros E; apply (Hd 0%nat c eq_refl); lia).
    pose proof (fun nga fl Hg => new_cell_ok i' jm c r (PRo + b) (PRo + (b + pC c)) (PRo + pR r + (b + pC c)) pa pga pgb nga o fl
                                   ltac:(lia) ltac:(lia) Hp Ho Hg Hd0) as N.
    destruct cols as [|c2 cols'].
    + destruct bnds; [|contradiction]. destruct old; [|contradiction]. exact (conj (N None li I) I).
    + destruct old as [|o2 old']; [destruct bnds; contradiction|]. rewrite row_cells_cons. cbv zeta.
      assert (N1 := N _ true ltac:(eapply ub2_mono; [exact (gap_step_ub _ _ _ _ true _ _ _ (Hga c) Hxga Hxa)|lia])).
      split; [exact N1|]. apply (IH (o2 :: old') bnds i' (S jm) (b + pC c) r PRo li o _ Hb Hold Ho (cellP_ub _ _ _ _ N1)).
      intros k c' Hk E. apply (Hd (S k) c' Hk). lia.
Qed.

Lemma row_step_ok cells cols bnds i' r PRo fi li :
  bnds_ok 0 cols bnds -> row_ok i' 0 PRo (0 :: bnds) cells ->
  (forall c, nth_error cols i' = Some c -> dpair r c) ->
  row_ok (S i') 0 (PRo + pR r) (0 :: bnds) (row_step alg_X R C K fi li cells cols r).
Proof.
  intros Hb Hc Hd. destruct cells as [|o0 old]; [contradiction|]. destruct Hc as [H0 Hold].
  destruct (cellP_ub _ _ _ _ H0) as (Oa & _ & Ogb).
  assert (N0 : cellP (S i') 0 (PRo + pR r + 0) (None, None, if fi then mx alg_X (c_gb alg_X o0 +! k_gb_ext alg_X R C K r) (c_a alg_X o0 +! k_gb_open alg_X R C K r)
                                                       else mx alg_X (c_gb alg_X o0) (c_a alg_X o0) +! k_gb_text alg_X R C K r)).
  { split; [exact I|split; [exact I|split; [|discriminate]]]. eapply ub2_mono; [exact (gap_step_ub _ _ _ _ fi _ _ _ (Hgb r) Ogb Oa)|lia]. }
  split; [exact N0|]. apply (row_cells_ok cols old bnds i' 0%nat 0 r PRo li o0 _ Hb Hold H0 (cellP_ub _ _ _ _ N0)).
  intros k c Hk E. apply Hd. rewrite E. exact Hk.
Qed.

(* the border row: s[startb] = (0, -inf, -inf), then a gap run along the border *)
Lemma init_cells_ok : forall cols bnds b fi prev j, bnds_ok b cols bnds ->
  ub2 (c_a alg_X prev) b -> ub2 (c_ga alg_X prev) (b - 2 * gam) ->
  row_ok 0 (S j) 0 bnds (init_cells alg_X R C K fi prev cols).
Proof.
  induction cols as [|c cols IH]; intros bnds b fi prev j Hb Ha Hg.
  - destruct bnds; [exact I|contradiction].
  - destruct bnds as [|b' bnds]; [contradiction|]. destruct Hb as [-> Hb]. destruct cols as [|c2 cols'].
    + destruct bnds; [|contradiction]. split; [|exact I]. apply cellP_dead. discriminate.
    + pose proof (gap_step_ub _ _ _ _ fi _ _ _ (Hga c) Hg Ha) as G. split.
      * split; [exact I|split; [|split; [exact I|discriminate]]]. eapply ub2_mono; [exact G|lia].
      * apply (IH bnds (b + pC c) fi _ (S j) Hb); [exact I|exact G].
Qed.

Lemma pass_ok : forall rows cols bnds fi li i' PRo cells,
  bnds_ok 0 cols bnds -> row_ok i' 0 PRo (0 :: bnds) cells ->
  (forall k r c, nth_error rows k = Some r -> nth_error cols (i' + k) = Some c -> dpair r c) ->
  row_ok (i' + length rows) 0 (PRo + fold_right (fun r acc => pR r + acc) 0 rows) (0 :: bnds)
         (fold_left (fun cells r => row_step alg_X R C K fi li cells cols r) rows cells).
Proof.
  induction rows as [|r rows IH]; intros cols bnds fi li i' PRo cells Hb Hc Hd.
  - cbn [fold_left fold_right length]. rewrite Nat.add_0_r, Z.add_0_r. exact Hc.
  - cbn [fold_left fold_right length]. rewrite Nat.add_succ_r, Z.add_assoc. apply (IH cols bnds fi li (S i')); [exact Hb| |].
    + apply (row_step_ok cells cols bnds i' r PRo fi li Hb Hc).
      intros c Hk. apply (Hd 0%nat r c eq_refl). rewrite Nat.add_0_r. exact Hk.
    + intros k r' c Hr Hk. apply (Hd (S k) r' c Hr). rewrite Nat.add_succ_r. exact Hk.
Qed.

Lemma row_nth : forall cols bnds cells i j0 PR b, bnds_ok b cols bnds -> row_ok i j0 PR (b :: bnds) cells ->
  length cells = S (length cols) /\
  forall t, (t <= length cols)%nat -> cellP i (j0 + t) (PR + b + sumC (firstn t cols)) (nth t cells (dead alg_X)).
Proof.
  assert (Z0 : forall i j0 PR b cols cl, cellP i j0 (PR + b) cl -> cellP i (j0 + 0) (PR + b + sumC (firstn 0 cols)) cl)
    by (intros; cbn [firstn sum_by fold_right]; rewrite Nat.add_0_r, Z.add_0_r; assumption).
  induction cols as [|c cols IH]; intros bnds [|c0 cells] i j0 PR b Hb Hr; try contradiction; destruct Hr as [H0 Hr].
  - destruct bnds; [|contradiction]. destruct cells; [|contradiction]. split; [reflexivity|].
    intros t Ht. replace t with 0%nat by (cbn [length] in Ht; lia). apply Z0, H0.
  - destruct bnds as [|b' bnds]; [contradiction|]. destruct Hb as [-> Hb].
    destruct (IH bnds cells i (S j0) PR _ Hb Hr) as [L N]. split; [cbn [length]; rewrite L; reflexivity|].
    intros [|t] Ht; [apply Z0, H0|]. specialize (N t ltac:(cbn [length] in Ht; lia)).
    rewrite Nat.add_succ_r. cbn [nth firstn sum_by fold_right]. fold (sumC (firstn t cols)).
    replace (PR + b + (pC c + sumC (firstn t cols))) with (PR + (b + pC c) + sumC (firstn t cols)) by lia. exact N.
Qed.

Section MeetDiag.
Variable M : mcosts alg_X.
Hypothesis M1 : forall i, exists g, m_a_ga alg_X M i = Some g /\ g <= 0.
Hypothesis M2 : exists g, m_a_gb alg_X M = Some g /\ g <= 0.
Hypothesis M3 : forall i, exists g, m_ga_a alg_X M i = Some g /\ g <= 0.
Hypothesis M4 : exists g, m_gb_gb_int alg_X M = Some g /\ g <= 0.
Hypothesis M5 : exists g, m_gb_gb_term alg_X M = Some g /\ g <= 0.
Hypothesis M6 : exists g, m_gb_a alg_X M = Some g /\ g <= 0.

Definition bval (best : XT * Z * Z) : XT := fst (fst best).

Lemma better_weak cand code i best U : ub2 cand U -> ub2 (bval best) U -> ub2 (bval (better alg_X cand code i best)) U.
Proof. intros Hc Hb. unfold better. destruct best as [[mxv tr] c]. cbn [gt alg_X]. destruct (xgt cand mxv); cbn [bval fst]; assumption. Qed.

Lemma better_keep cand code i v tr c U : ub2 cand U -> U < 2 * v -> better alg_X cand code i (Some v, tr, c) = (Some v, tr, c).
Proof.
  intros Hc Hu. unfold better. destruct cand as [w|]; cbn [gt alg_X xgt]; [|reflexivity]. unfold ub2 in Hc.
  destruct (Z.ltb_spec v w); [lia|reflexivity].
Qed.

(* the candidates of a column as a list: meet_col tries 1 and then col_cands, meet_last tries last_cands *)
Definition best_of (i : Z) (cands : list (XT * Z)) (best : XT * Z * Z) : XT * Z * Z :=
  fold_left (fun bst cc => better alg_X (fst cc) (snd cc) i bst) cands best.
Definition col_cands (flag : bool) (ns : XT) (i : Z) (f b : cellX) : list (XT * Z) :=
  [(c_a alg_X f +! c_ga alg_X b +! m_a_ga alg_X M i +! ns, 2); (c_a alg_X f +! c_gb alg_X b +! m_a_gb alg_X M +! ns, 3);
   (c_ga alg_X f +! c_a alg_X b +! m_ga_a alg_X M i +! ns, 5);
   (c_gb alg_X f +! c_gb alg_X b +! (if flag then m_gb_gb_term alg_X M else m_gb_gb_int alg_X M) +! ns, 6);
   (c_gb alg_X f +! c_a alg_X b +! m_gb_a alg_X M +! ns, 7)].
Definition last_cands (flag : bool) (ns : XT) (f b : cellX) : list (XT * Z) :=
  [(c_a alg_X f +! c_gb alg_X b +! m_a_gb alg_X M +! ns, 3);
   (c_gb alg_X f +! c_gb alg_X b +! (if flag then m_gb_gb_term alg_X M else m_gb_gb_int alg_X M) +! ns, 6)].

Lemma best_of_weak i cands U : Forall (fun cc => ub2 (fst cc) U) cands -> forall best, ub2 (bval best) U -> ub2 (bval (best_of i cands best)) U.
Proof. induction 1 as [|cc cands Hc _ IH]; intros best Hb; [exact Hb|]. apply IH, better_weak; assumption. Qed.
Lemma best_of_keep i cands U v tr c : Forall (fun cc => ub2 (fst cc) U) cands -> U < 2 * v -> best_of i cands (Some v, tr, c) = (Some v, tr, c).
Proof. intros H Hv. induction H as [|cc cands Hc _ IH]; [reflexivity|]. cbn [best_of fold_left]. rewrite (better_keep _ _ _ _ _ _ U) by assumption. exact IH. Qed.

Lemma cand1_ub x y s u v U : 0 <= s -> ub2 x u -> ub2 y v -> u + v <= U -> ub2 (x +! y +! xneg (Some s)) U.
Proof. intros Hs Hx Hy L. unfold ub2, xadd, xneg in *. destruct x, y; trivial; lia. Qed.
Lemma cand_ub x y g s u v U : 0 <= s -> nonpos g -> ub2 x u -> ub2 y v -> u + v <= U -> ub2 (x +! y +! g +! xneg (Some s)) U.
Proof.
  intros Hs (g' & -> & Hg) Hx Hy L. unfold ub2, xadd, xneg in *. destruct x, y; trivial; lia.
Qed.

Lemma col_cands_ub flag s i f b Fa Fg Ba Bg U : 0 <= s -> cell_ub f Fa Fg -> cell_ub b Ba Bg ->
  Fa + Bg <= U -> Fg + Ba <= U -> Fg + Bg <= U -> Forall (fun cc => ub2 (fst cc) U) (col_cands flag (xneg (Some s)) i f b).
Proof.
  intros Hs (F1 & F2 & F3) (B1 & B2 & B3) L2 L3 L4.
  repeat constructor; cbn [fst]; (eapply cand_ub; [exact Hs| |eassumption|eassumption|assumption]);
    [exact (M1 i)|exact M2|exact (M3 i)|destruct flag; [exact M5|exact M4]|exact M6].
Qed.
Lemma last_cands_ub flag s f b Fa Fg Ba Bg U : 0 <= s -> cell_ub f Fa Fg -> cell_ub b Ba Bg ->
  Fa + Bg <= U -> Fg + Bg <= U -> Forall (fun cc => ub2 (fst cc) U) (last_cands flag (xneg (Some s)) f b).
Proof.
  intros Hs (F1 & F2 & F3) (B1 & B2 & B3) L2 L4.
  repeat constructor; cbn [fst]; (eapply cand_ub; [exact Hs| |eassumption|eassumption|assumption]); [exact M2|destruct flag; [exact M5|exact M4]].
Qed.

Lemma meet_last_weak flag s i f b best Fa Fg Ba Bg U : 0 <= s ->
  cell_ub f Fa Fg -> cell_ub b Ba Bg -> Fa + Bg <= U -> Fg + Bg <= U ->
  ub2 (bval best) U -> ub2 (bval (meet_last alg_X M flag (Some s) i f b best)) U.
Proof. intros Hs Cf Cb L2 L4. apply (best_of_weak i (last_cands flag (xneg (Some s)) f b)), (last_cands_ub flag s f b Fa Fg Ba Bg); assumption. Qed.

(* a column off the diagonal / the diagonal column, relative to the threshold U and the value E kept from the diagonal *)
Variable U : Z.
Variable E : Z.
Hypothesis HUE : U < 2 * E.
Definition off_col (f b : cellX) : Prop :=
  exists Fa Fg Ba Bg, cell_ub f Fa Fg /\ cell_ub b Ba Bg /\ Fa + Ba <= U /\ Fa + Bg <= U /\ Fg + Ba <= U /\ Fg + Bg <= U.
Definition diag_col (s : Z) (f b : cellX) : Prop :=
  exists ea eb Fg Bg, c_a alg_X f = Some ea /\ c_a alg_X b = Some eb /\ ea + eb - s = E /\
    cell_ub f (2 * ea) Fg /\ cell_ub b (2 * eb) Bg /\ 2 * ea + Bg <= U /\ Fg + 2 * eb <= U /\ Fg + Bg <= U.

Lemma off_col_weak flag s i f b best : 0 <= s -> off_col f b -> ub2 (bval best) U -> ub2 (bval (meet_col alg_X M flag (Some s) i f b best)) U.
Proof.
  intros Hs (Fa & Fg & Ba & Bg & Cf & Cb & L1 & L2 & L3 & L4) Hb.
  apply (best_of_weak i (col_cands flag (xneg (Some s)) i f b)); [apply (col_cands_ub flag s i f b Fa Fg Ba Bg); assumption|].
  apply better_weak; [|exact Hb]. exact (cand1_ub _ _ s Fa Ba U Hs (proj1 Cf) (proj1 Cb) L1).
Qed.

Lemma off_col_keep flag s i f b tr c : 0 <= s -> off_col f b -> meet_col alg_X M flag (Some s) i f b (Some E, tr, c) = (Some E, tr, c).
Proof.
  intros Hs (Fa & Fg & Ba & Bg & Cf & Cb & L1 & L2 & L3 & L4).
  change (best_of i (col_cands flag (xneg (Some s)) i f b) (better alg_X (c_a alg_X f +! c_a alg_X b +! xneg (Some s)) 1 i (Some E, tr, c)) = (Some E, tr, c)).
  rewrite (better_keep _ 1 i E tr c U (cand1_ub _ _ s Fa Ba U Hs (proj1 Cf) (proj1 Cb) L1) HUE).
  apply (best_of_keep i _ U); [apply (col_cands_ub flag s i f b Fa Fg Ba Bg); assumption|exact HUE].
Qed.

Lemma off_last_keep flag s i f b tr c : 0 <= s -> off_col f b -> meet_last alg_X M flag (Some s) i f b (Some E, tr, c) = (Some E, tr, c).
Proof.
  intros Hs (Fa & Fg & Ba & Bg & Cf & Cb & L1 & L2 & L3 & L4).
  apply (best_of_keep i (last_cands flag (xneg (Some s)) f b) U); [apply (last_cands_ub flag s f b Fa Fg Ba Bg); assumption|exact HUE].
Qed.

(* the diagonal column: candidate 1 is exact and wins *)
Lemma diag_col_wins flag s i f b best : 0 <= s -> diag_col s f b -> ub2 (bval best) U -> meet_col alg_X M flag (Some s) i f b best = (Some E, 1, i).
Proof.
  intros Hs (ea & eb & Fg & Bg & Ea & Eb & Es & Cf & Cb & L2 & L3 & L4) Hb.
  change (best_of i (col_cands flag (xneg (Some s)) i f b) (better alg_X (c_a alg_X f +! c_a alg_X b +! xneg (Some s)) 1 i best) = (Some E, 1, i)).
  assert (B1 : better alg_X (c_a alg_X f +! c_a alg_X b +! xneg (Some s)) 1 i best = (Some E, 1, i)).
  { rewrite Ea, Eb. unfold better. destruct best as [[mxv tr] c]. cbn [gt alg_X xgt xadd xneg bval fst] in *. replace (ea + eb + - s) with E by lia.
    destruct mxv as [w|]; [|reflexivity]. unfold ub2 in Hb. destruct (Z.ltb_spec w E); [reflexivity|lia]. }
  rewrite B1. apply (best_of_keep i _ U); [|exact HUE]. apply (col_cands_ub flag s i f b (2 * ea) Fg (2 * eb) Bg); assumption.
Qed.

Lemma scan_keep sz el sb eb : forall fs bs i tr c, Forall2 off_col fs bs ->
  meet_scan alg_X M sz el sb eb i fs bs (Some E, tr, c) = (Some E, tr, c).
Proof.
  induction fs as [|f fs IH]; intros bs i tr c H; inversion H as [|? b ? bs' Hc Hr]; subst; [reflexivity|].
  destruct fs as [|f2 fs'].
  - inversion Hr; subst. apply (off_last_keep el _ i f b tr c (tb_nonneg sb eb i) Hc).
  - inversion Hr; subst. rewrite meet_scan_flags by discriminate. cbn [tiebreak alg_X].
    rewrite (off_col_keep (i =? 0) _ i f b tr c (tb_nonneg sb eb i) Hc). apply IH, Hr.
Qed.

Lemma scan_find sz el sb eb : forall pf pb i fd bd qf qb best, Forall2 off_col pf pb ->
  diag_col (tb sb eb (i + Z.of_nat (length pf))) fd bd -> Forall2 off_col qf qb -> qf <> [] ->
  ub2 (bval best) U ->
  meet_scan alg_X M sz el sb eb i (pf ++ fd :: qf) (pb ++ bd :: qb) best = (Some E, 1, i + Z.of_nat (length pf)).
Proof.
  induction pf as [|f pf IH]; intros pb i fd bd qf qb best Hp Hd Hq Hne Hb; inversion Hp as [|? b ? pb' Hc Hr]; subst.
  - cbn [app length Z.of_nat] in *. rewrite Z.add_0_r in *.
    destruct qf as [|f2 qf']; [congruence|]. inversion Hq; subst.
    rewrite meet_scan_flags by discriminate. cbn [tiebreak alg_X]. rewrite (diag_col_wins (i =? 0) _ i fd bd best (tb_nonneg _ _ _) Hd Hb).
    apply scan_keep, Hq.
  - cbn [app length]. rewrite meet_scan_flags by (intros Q; apply app_eq_nil in Q as [_ Q]; discriminate). cbn [tiebreak alg_X].
    assert (EI : i + 1 + Z.of_nat (length pf) = i + Z.of_nat (S (length pf))) by lia.
    rewrite (IH pb' (i + 1) fd bd qf qb _ Hr); [f_equal; exact EI|rewrite EI; exact Hd|exact Hq|exact Hne|].
    apply (off_col_weak (i =? 0) _ i f b best (tb_nonneg sb eb i) Hc Hb).
Qed.

Lemma scan_find_at sz el sb eb i fs bs m best : length bs = length fs -> (S m < length fs)%nat ->
  (forall j, (j < length fs)%nat -> j <> m -> off_col (nth j fs (dead alg_X)) (nth j bs (dead alg_X))) ->
  diag_col (tb sb eb (i + Z.of_nat m)) (nth m fs (dead alg_X)) (nth m bs (dead alg_X)) -> ub2 (bval best) U ->
  meet_scan alg_X M sz el sb eb i fs bs best = (Some E, 1, i + Z.of_nat m).
Proof.
  intros Lb Hm OFF Hd Hb. assert (LP : length (firstn m fs) = m) by (rewrite firstn_length; lia).
  rewrite (split_at_nth (dead alg_X) m fs), (split_at_nth (dead alg_X) m bs) by lia.
  eapply eq_trans; [apply scan_find|rewrite LP; reflexivity]; rewrite ?LP; try assumption.
  - apply Forall2_nth_intro with (d1 := dead alg_X) (d2 := dead alg_X); [rewrite !firstn_length; lia|].
    intros t Ht. rewrite firstn_length in Ht. rewrite !nth_firstn_lt by lia. apply OFF; lia.
  - apply Forall2_nth_intro with (d1 := dead alg_X) (d2 := dead alg_X); [rewrite !skipn_length; lia|].
    intros t Ht. rewrite skipn_length in Ht. rewrite !nth_skipn. apply OFF; lia.
  - intro Q. apply (f_equal (@length _)) in Q. rewrite skipn_length in Q. cbn [length] in Q. lia.
Qed.
End MeetDiag.

Section Square.
Variable M : mcosts alg_X.
Hypothesis M1 : forall i, exists g, m_a_ga alg_X M i = Some g /\ g <= 0.
Hypothesis M2 : exists g, m_a_gb alg_X M = Some g /\ g <= 0.
Hypothesis M3 : forall i, exists g, m_ga_a alg_X M i = Some g /\ g <= 0.
Hypothesis M4 : exists g, m_gb_gb_int alg_X M = Some g /\ g <= 0.
Hypothesis M5 : exists g, m_gb_gb_term alg_X M = Some g /\ g <= 0.
Hypothesis M6 : exists g, m_gb_a alg_X M = Some g /\ g <= 0.

Definition live : cellX := (Some 0, None, None).

Lemma bnds_exists : forall cols b, exists bnds, bnds_ok b cols bnds.
Proof. induction cols as [|c cols IH]; intros b; [exists []; exact I|]. destruct (IH (b + pC c)) as (bn & H). exists ((b + pC c) :: bn). split; [reflexivity|exact H]. Qed.

Lemma pass_from_corner rows cols fi li :
  (forall t r c, nth_error rows t = Some r -> nth_error cols t = Some c -> dpair r c) ->
  let cells := pass alg_X R C K fi li live rows cols in
  length cells = S (length cols) /\
  forall t, (t <= length cols)%nat -> cellP (length rows) t (sumR rows + sumC (firstn t cols)) (nth t cells (dead alg_X)).
Proof.
  intros P. cbv zeta. destruct (bnds_exists cols 0) as (bnds & Hb).
  assert (H0 : row_ok 0 0 0 (0 :: bnds) (live :: init_cells alg_X R C K fi live cols)).
  { cbn [row_ok]. split.
    - split; [cbn; lia|split; [exact I|split; [exact I|intros _; exists 0; split; reflexivity]]].
    - apply (init_cells_ok cols bnds 0 fi live 0%nat Hb); cbn; [lia|exact I]. }
  pose proof (pass_ok rows cols bnds fi li 0%nat 0 _ Hb H0) as PO. cbn [Nat.add] in PO.
  specialize (PO ltac:(intros k r c Hr Hc; apply (P k r c Hr Hc))).
  rewrite Z.add_0_l in PO. fold (sumR rows) in PO. unfold pass.
  destruct (row_nth cols bnds _ (length rows) 0%nat (sumR rows) 0 Hb PO) as [L N]. split; [exact L|].
  intros t Ht. specialize (N t Ht). rewrite Z.add_0_r in N. exact N.
Qed.

Lemma nth_error_rev {X} (l : list X) t x : nth_error (rev l) t = Some x -> (t < length l)%nat /\ nth_error l (length l - 1 - t) = Some x.
Proof.
  intros H. assert (Lt : (t < length l)%nat) by (rewrite <- rev_length; apply nth_error_Some; congruence). split; [exact Lt|].
  rewrite (nth_error_nth' (rev l) x) in H by (rewrite rev_length; lia). rewrite rev_nth in H by lia.
  rewrite (nth_error_nth' l x) by lia. rewrite <- H. do 2 f_equal. lia.
Qed.

(* forward rows RF over columns CF, backward rows RB over columns CB (both in processing order); the backward columns
   carry the potentials of the forward columns in reverse; rows pair with the leading columns on both sides.  Cell j of
   the forward array has consumed the first j columns, cell j of the reversed backward array the last k - j: together
   all of them, so every column is bounded by the total minus 2 gam, except the middle one where both are exact *)
Lemma square_cols RF RB CF CB fi li fi' li' s :
  (length RF + length RB = length CF)%nat -> (1 <= length RB)%nat -> map pC CB = map pC (rev CF) ->
  (forall t r c, nth_error RF t = Some r -> nth_error CF t = Some c -> dpair r c) ->
  (forall t r c, nth_error RB t = Some r -> nth_error CB t = Some c -> dpair r c) -> 0 <= s -> s < gam ->
  let fs := pass alg_X R C K fi li live RF CF in
  let bs := rev (pass alg_X R C K fi' li' live RB CB) in
  exists U E, U < 2 * E /\ length fs = S (length CF) /\ length bs = S (length CF) /\
    (forall j, (j <= length CF)%nat -> j <> length RF -> off_col U (nth j fs (dead alg_X)) (nth j bs (dead alg_X))) /\
    diag_col U E s (nth (length RF) fs (dead alg_X)) (nth (length RF) bs (dead alg_X)).
Proof.
  intros L K1 HCB PF PB Hs Hsg. cbv zeta. pose proof (fun j => sum_by_split_rev pC CF CB j HCB) as TCj.
  set (k := length CF) in *. set (m1 := length RF) in *.
  assert (LCB : length CB = k) by (apply (f_equal (@length _)) in HCB; rewrite !map_length, rev_length in HCB; exact HCB).
  destruct (pass_from_corner RF CF fi li PF) as [LF NF]. fold m1 in NF. fold k in LF, NF.
  destruct (pass_from_corner RB CB fi' li' PB) as [LB NB]. replace (length RB) with (k - m1)%nat in NB by lia. rewrite LCB in LB, NB.
  set (fs := pass alg_X R C K fi li live RF CF) in *. set (bp := pass alg_X R C K fi' li' live RB CB) in *.
  assert (NBj : forall j, (j <= k)%nat -> nth j (rev bp) (dead alg_X) = nth (k - j) bp (dead alg_X)).
  { intros j Hj. rewrite rev_nth by (rewrite LB; lia). rewrite LB. f_equal; lia. }
  destruct (cellP_diag _ _ _ (NF m1 ltac:(lia))) as (ea & Ea & E2a & Cfa).
  destruct (cellP_diag _ _ _ (NB (k - m1)%nat ltac:(lia))) as (eb & Eb & E2b & Cfb).
  exists (sumR RF + sumR RB + sumC CF - 2 * gam), (ea + eb - s). pose proof (TCj m1 ltac:(lia)) as TM.
  split; [lia|]. split; [exact LF|]. split; [rewrite rev_length; exact LB|]. split.
  - intros j Hj Nj. rewrite NBj by exact Hj. pose proof (TCj j Hj) as TJ.
    eexists _, _, _, _. split; [apply (cellP_off m1 j), NF; lia|]. split; [apply (cellP_off (k - m1) (k - j))%nat, NB; lia|]. lia.
  - rewrite NBj by lia. eexists ea, eb, _, _. repeat split; try apply Cfa; try apply Cfb; try assumption; lia.
Qed.

Theorem square_meet RF RB CF CB fi li fi' li' sz el sb eb i0 :
  (length RF + length RB = length CF)%nat -> (1 <= length RB)%nat -> map pC CB = map pC (rev CF) ->
  (forall t r c, nth_error RF t = Some r -> nth_error CF t = Some c -> dpair r c) ->
  (forall t r c, nth_error RB t = Some r -> nth_error CB t = Some c -> dpair r c) ->
  let m1 := length RF in
  let fs := pass alg_X R C K fi li live RF CF in
  let bs := rev (pass alg_X R C K fi' li' live RB CB) in
  tb sb eb (i0 + Z.of_nat m1) < gam ->
  exists E, meet_scan alg_X M sz el sb eb i0 fs bs (None, -1, -1) = (Some E, 1, i0 + Z.of_nat m1).
Proof.
  intros L K1 HCB PF PB. cbv zeta. intros Htb.
  destruct (square_cols RF RB CF CB fi li fi' li' _ L K1 HCB PF PB (tb_nonneg _ _ _) Htb) as (U & E & HUE & LF & LB & OFF & DG).
  exists E. apply (scan_find_at M M1 M2 M3 M4 M5 M6 U E HUE); [congruence|lia| |exact DG|exact I].
  intros j Hj. apply OFF. lia.
Qed.
End Square.
End Diag.

Definition meet_nonpos (M : mcosts alg_X) : Prop :=
  (forall i, nonpos (m_a_ga alg_X M i)) /\ nonpos (m_a_gb alg_X M) /\ (forall i, nonpos (m_ga_a alg_X M i)) /\
  nonpos (m_gb_gb_int alg_X M) /\ nonpos (m_gb_gb_term alg_X M) /\ nonpos (m_gb_a alg_X M).

(* the premises of Section Diag on a cost record and its potentials, to be built field by field *)
Record diag_costs {R C} (K : costs alg_X R C) (pR : R -> Z) (pC : C -> Z) (eR : R -> Z) (gam : Z) (dpair : R -> C -> Prop) : Prop := {
  dc_gam : 0 < gam;
  dc_match_ub : forall r c x u, ub2 x u -> ub2 (k_match alg_X R C K r c x) (u + pR r + pC c);
  dc_match_dg : forall r c v, dpair r c -> k_match alg_X R C K r c (Some v) = Some (v + eR r) /\ 2 * eR r = pR r + pC c;
  dc_col_gaps : forall c, gaps_below (k_ga_ext alg_X R C K c) (k_ga_open alg_X R C K c) (k_ga_text alg_X R C K c) (pC c - 2 * gam);
  dc_row_gaps : forall r, gaps_below (k_gb_ext alg_X R C K r) (k_gb_open alg_X R C K r) (k_gb_text alg_X R C K r) (pR r - 2 * gam);
  dc_col_to_a : forall c, nonpos (k_ga_to_a alg_X R C K c);
  dc_row_to_a : forall r, nonpos (k_gb_to_a alg_X R C K r) }.

Lemma square_meet_of {R C} (K : costs alg_X R C) pR pC eR gam dpair M : diag_costs K pR pC eR gam dpair -> meet_nonpos M ->
  forall RF RB CF CB fi li fi' li' sz el sb eb i0,
  (length RF + length RB = length CF)%nat -> (1 <= length RB)%nat -> map pC CB = map pC (rev CF) ->
  (forall t r c, nth_error RF t = Some r -> nth_error CF t = Some c -> dpair r c) ->
  (forall t r c, nth_error RB t = Some r -> nth_error CB t = Some c -> dpair r c) ->
  tb sb eb (i0 + Z.of_nat (length RF)) < gam ->
  exists E, meet_scan alg_X M sz el sb eb i0 (pass alg_X R C K fi li live RF CF) (rev (pass alg_X R C K fi' li' live RB CB)) (None, -1, -1)
            = (Some E, 1, i0 + Z.of_nat (length RF)).
Proof.
  intros [H1 H2 H3 H4 H5 H6 H7] (M1 & M2 & M3 & M4 & M5 & M6). exact (square_meet R C K pR pC eR gam dpair H1 H2 H3 H4 H5 H6 H7 M M1 M2 M3 M4 M5 M6).
Qed.

Section Ctl.
Variable Kn : kernel alg_X.
Variable n : Z.
Hypothesis Hsq : forall o e, 0 <= o -> o < e -> e <= n ->
  let mid := (e - o) / 2 + o in
  exists v, k_meetup alg_X Kn mid o e (k_forward alg_X Kn o mid o e (live0 alg_X)) (k_backward alg_X Kn mid e o e (live0 alg_X)) = (v, 1, mid).

Definition diag_writes (o e : Z) (ws : list (Z * Z)) : Prop :=
  Forall (fun w => fst w = snd w /\ o <= fst w <= Z.max o e) ws /\ forall i, o < i <= e -> In (i, i) ws.

Lemma runner_diag : forall fuel o e, 0 <= o -> e <= n -> (Z.to_nat (e - o) < fuel)%nat ->
  exists ws, runner alg_X Kn fuel o e o e (live0 alg_X) (live0 alg_X) = Some ws /\ diag_writes o e ws.
Proof.
  induction fuel as [|fu IH]; intros o e Ho He Hf; [lia|].
  cbn [runner]. destruct (Z.leb_spec e o) as [Le|Lt].
  - cbn [orb]. exists []. split; [reflexivity|]. split; [constructor|]. intros i Hi. lia.
  - cbn [orb]. destruct (Hsq o e Ho Lt He) as (v & Hm). cbv zeta in Hm. set (mid := (e - o) / 2 + o) in *. rewrite Hm.
    cbn [Z.eqb Pos.eqb].
    pose proof (mid_bounds o e Lt) as Hmid. fold mid in Hmid.
    destruct (IH o (mid - 1) Ho ltac:(lia) ltac:(lia)) as (w1 & R1 & F1 & I1).
    destruct (IH (mid + 1) e ltac:(lia) He ltac:(lia)) as (w2 & R2 & F2 & I2).
    rewrite R1, R2. eexists. split; [reflexivity|]. split.
    + constructor; [cbn [fst snd]; lia|]. constructor; [cbn [fst snd]; lia|].
      apply Forall_app. split; (eapply Forall_impl; [|eassumption]); intros w (Q1 & Q2); (split; [exact Q1|lia]).
    + intros i Hi. destruct (Z.eq_dec i mid) as [->|N1]; [left; reflexivity|]. destruct (Z.eq_dec i (mid + 1)) as [->|N2]; [right; left; reflexivity|].
      right; right. cbn [app]. apply in_or_app. destruct (Z.ltb_spec i mid); [left; apply I1; lia|right; apply I2; lia].
Qed.

Lemma set_nthZ_length : forall l i v, length (set_nthZ l i v) = length l.
Proof. induction l as [|x l IH]; intros [|i] v; cbn [set_nthZ length]; try reflexivity. rewrite IH. reflexivity. Qed.
Lemma set_nthZ_nth : forall l i j v, nth j (set_nthZ l i v) (-1) = if (j =? i)%nat && (i <? length l)%nat then v else nth j l (-1).
Proof.
  induction l as [|x l IH]; intros [|i] [|j] v; cbn [set_nthZ nth length]; try reflexivity; [destruct (_ =? _)%nat; reflexivity|]. apply IH.
Qed.

Definition apply_writes (ws : list (Z * Z)) (p : list Z) : list Z :=
  fold_left (fun p w => if (0 <=? fst w) then set_nthZ p (Z.to_nat (fst w)) (snd w) else p) ws p.

Lemma apply_writes_diag : forall ws p, Forall (fun w => fst w = snd w /\ 0 <= fst w /\ (Z.to_nat (fst w) < length p)%nat) ws ->
  length (apply_writes ws p) = length p /\
  forall j, (j < length p)%nat ->
    (nth j p (-1) = Z.of_nat j \/ In (Z.of_nat j, Z.of_nat j) ws -> nth j (apply_writes ws p) (-1) = Z.of_nat j).
Proof.
  induction ws as [|[a b] ws IH]; intros p H.
  - split; [reflexivity|]. intros j Hj [Q|[]]. exact Q.
  - inversion H as [|? ? Hw Hr]; subst. cbn [fst snd] in Hw. destruct Hw as (-> & Hb & Hl).
    unfold apply_writes. cbn [fold_left fst snd]. destruct (Z.leb_spec 0 b); [|lia]. fold (apply_writes ws (set_nthZ p (Z.to_nat b) b)).
    destruct (IH (set_nthZ p (Z.to_nat b) b)) as (L & Hn).
    { eapply Forall_impl; [|exact Hr]. intros w (Q1 & Q2 & Q3). rewrite set_nthZ_length. auto. }
    rewrite set_nthZ_length in L, Hn. split; [exact L|]. intros j Hj Q. apply Hn; [exact Hj|].
    rewrite set_nthZ_nth. destruct (Nat.eqb_spec j (Z.to_nat b)) as [->|Nj]; cbn [andb].
    + left. apply Nat.ltb_lt in Hl. rewrite Hl. lia.
    + destruct Q as [Q|[Q|Q]]; [left; exact Q|inversion Q; lia|right; exact Q].
Qed.

Theorem raw_path_diag : 0 <= n ->
  raw_path alg_X Kn n n = Some (map Z.of_nat (seq 1 (Z.to_nat n))).
Proof.
  intros Hn. unfold raw_path.
  destruct (runner_diag (Z.to_nat (n + n + 2)) 0 n ltac:(lia) ltac:(lia) ltac:(lia)) as (ws & Rw & Fw & Iw). rewrite Rw. f_equal.
  fold (apply_writes ws (repeat (-1) (Z.to_nat (Z.max n n + 2)))). rewrite Z.max_id.
  set (p0 := repeat (-1) (Z.to_nat (n + 2))).
  assert (Lp : length p0 = Z.to_nat (n + 2)) by apply repeat_length.
  destruct (apply_writes_diag ws p0) as (L & Hj).
  { eapply Forall_impl; [|exact Fw]. intros w (Q1 & Q2). rewrite Lp. split; [exact Q1|]. lia. }
  set (full := apply_writes ws p0) in *.
  apply (nth_ext _ _ (-1) (-1)).
  - rewrite firstn_length, map_length, seq_length. destruct full as [|x full']; cbn [length tl] in *; lia.
  - intros t Ht. rewrite firstn_length in Ht.
    assert (Lt : (t < Z.to_nat n)%nat) by lia.
    rewrite nth_firstn_lt by lia.
    assert (E1 : nth t (tl full) (-1) = nth (S t) full (-1)) by (destruct full; [destruct t; reflexivity|reflexivity]). rewrite E1.
    rewrite Hj by (try lia; right; apply Iw; lia).
    rewrite (nth_indep _ (-1) (Z.of_nat 0)) by (rewrite map_length, seq_length; lia).
    rewrite map_nth, seq_nth by lia. reflexivity.
Qed.
End Ctl.
End TB.
