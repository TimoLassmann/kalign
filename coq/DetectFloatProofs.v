(* C13 / C14, the floating-point side: the two binary64 sums of detect_alphabet are within 2^-38 * n of the exact sums
   (n = number of counted letters), so the comparison decides like the exact margin whenever the latter is not tiny. *)
From Coq Require Import Reals Lra.
From Flocq Require Import Core IEEE754.BinarySingleNaN IEEE754.Binary.
From Flocq.Prop Require Import Relative.
From KV Require Import Base FP FPFacts Detect DetectProofs.
Import ListNotations.
Local Open Scope Z_scope.

Local Notation fexp64 := (SpecFloat.fexp 53 1024).
Local Notation rnd := (round_mode mode_NE).

Lemma u53 : (/ 2 * bpow radix2 (-53 + 1) = / 9007199254740992)%R.
Proof. change (-53 + 1) with (-52). change (bpow radix2 (-52)) with (/ IZR (Z.pow_pos 2 52))%R. change (Z.pow_pos 2 52) with 4503599627370496. lra. Qed.

Lemma eta_small : (/ 2 * bpow radix2 (-1074) <= / 1152921504606846976)%R.   (* 2^-60 *)
Proof.
  assert (H : (bpow radix2 (-1074) <= bpow radix2 (-59))%R) by (apply bpow_le; lia).
  change (bpow radix2 (-59)) with (/ IZR (Z.pow_pos 2 59))%R in H. change (Z.pow_pos 2 59) with 576460752303423488 in H. lra.
Qed.

(* one rounding: relative error 2^-53 (9007199254740992 = 2^53) plus an absolute 2^-60 (1152921504606846976 = 2^60) *)
Lemma round_err x : (Rabs (round radix2 fexp64 rnd x - x) <= / 9007199254740992 * Rabs x + / 1152921504606846976)%R.
Proof.
  destruct (error_N_FLT radix2 (-1074) 53 ltac:(lia) (fun z => negb (Z.even z)) x) as (eps & eta & He & Ht & _ & E).
  change (round radix2 fexp64 rnd x) with (round radix2 (FLT_exp (-1074) 53) (Znearest (fun z => negb (Z.even z))) x).
  rewrite E. assert (He' : (Rabs eps <= / 9007199254740992)%R) by (eapply Rle_trans; [exact He|right; exact u53]).
  clear He. rename He' into He. pose proof eta_small as Hs.
  replace (x * (1 + eps) + eta - x)%R with (x * eps + eta)%R by ring.
  eapply Rle_trans; [apply Rabs_triang|]. rewrite Rabs_mult.
  assert (Rabs x * Rabs eps <= Rabs x * / 9007199254740992)%R by (apply Rmult_le_compat_l; [apply Rabs_pos|exact He]).
  lra.
Qed.

(* s is the binary64 accumulator, S the exact sum of the terms added so far, E a bound on their distance.
   NN bounds the number of letters of the whole histogram: at most 128 * 2^31 = 2^38 <= 2^40.  Every table entry has
   magnitude at most 32 (entry_ok), so |S| <= 32 NN throughout: stated as "|S| plus 32 for each of the t letters still
   to be counted stays below 32 NN".  One step rounds a product and a sum, both of magnitude at most 64 NN, so it adds
   at most delta NN = 2^-45 NN to E; the k entries still to be visited must leave E below NN (128 steps from 0 end at
   2^-38 NN). *)
Definition delta (NN : R) : R := (/ 2 ^ 45 * NN)%R.
Lemma delta_val NN : delta NN = (/ 35184372088832 * NN)%R.
Proof. unfold delta. do 2 f_equal. lra. Qed.

Definition err_inv (NN : R) (t : Z) (k : nat) (s : f64) (S E : R) : Prop :=
  is_finite 53 1024 s = true /\ (Rabs (B2R 53 1024 s - S) <= E)%R /\
  (Rabs S + 32 * IZR t <= 32 * NN)%R /\ (E + INR k * delta NN <= NN <= 2 ^ 40)%R.

Lemma err_inv_start n : 1 <= n <= 2 ^ 40 -> err_inv (IZR n) n 128 f64_zero 0 0.
Proof.
  intros [A B]. apply IZR_le in A, B. change (IZR (2 ^ 40)) with 1099511627776%R in B.
  unfold err_inv. rewrite delta_val. change (B2R 53 1024 f64_zero) with 0%R. rewrite INR_IZR_INZ. change (IZR (Z.of_nat 128)) with 128%R.
  rewrite Rminus_0_r, Rabs_R0. repeat split; try reflexivity; lra.
Qed.

Lemma err_inv_skip NN t t' k s S E : err_inv NN t' (Datatypes.S k) s S E -> 0 <= t <= t' -> err_inv NN t k s S (E + delta NN).
Proof.
  unfold err_inv. rewrite !delta_val. intros (F & He & Hs & Hc) Ht. rewrite S_INR in Hc.
  pose proof (Rabs_pos S). pose proof (IZR_le _ _ (proj1 Ht)). pose proof (IZR_le _ _ (proj2 Ht)).
  assert (0 <= INR k * (/ 35184372088832 * NN))%R by (apply Rmult_le_pos; [apply pos_INR|lra]).
  repeat split; [exact F|lra..].
Qed.

(* a counted letter: acc + table[i] * (double)count *)
Lemma err_inv_count NN t k acc S E (tb : f64) (c : Z) :
  err_inv NN (c + t) (Datatypes.S k) acc S E -> is_finite 53 1024 tb = true -> (Rabs (B2R 53 1024 tb) <= 32)%R ->
  0 < c < 2 ^ 31 -> 0 <= t ->
  err_inv NN t k (f64_add acc (f64_mul tb (f64_of_Z c))) (S + B2R 53 1024 tb * IZR c) (E + delta NN).
Proof.
  unfold err_inv. rewrite !delta_val. intros (Fa & He & HS & Hcap) Ft Hr Hc Ht. rewrite S_INR in Hcap. rewrite plus_IZR in HS.
  pose proof (Rabs_pos S) as S0. pose proof (IZR_le _ _ Ht) as T0.
  destruct (of_Z_exact c) as (Vc & Fc & _); [change (2 ^ 53) with (4194304 * 2 ^ 31); lia|].
  assert (C1 : (1 <= IZR c)%R) by (apply IZR_le; lia).
  assert (Q0 : (0 <= INR k * (/ 35184372088832 * NN))%R) by (apply Rmult_le_pos; [apply pos_INR|lra]).
  assert (Bt : (Rabs (B2R 53 1024 tb * IZR c) <= 32 * IZR c)%R).
  { rewrite Rabs_mult, (Rabs_pos_eq (IZR c)) by lra. apply Rmult_le_compat_r; [lra|exact Hr]. }
  destruct (f64_mul_correct tb (f64_of_Z c) Ft Fc) as (Vt & Ftt & _); rewrite Vc in *; [rewrite bpow60; lra|].
  set (t' := f64_mul tb (f64_of_Z c)) in *.
  pose proof (round_err (B2R 53 1024 tb * IZR c)) as Rt. rewrite <- Vt in Rt.
  pose proof (Rabs_le_inv _ _ Bt) as Bt'. apply Rabs_le_inv in Rt. pose proof (Rabs_le_inv _ _ He) as He'.
  pose proof (Rabs_le_inv _ _ (Rle_refl (Rabs S))) as HS'.
  destruct (f64_add_correct acc t' Fa Ftt) as (Va & Faa); [rewrite bpow60; apply Rabs_le; lra|].
  pose proof (round_err (B2R 53 1024 acc + B2R 53 1024 t')) as Rx.
  assert (Rabs (B2R 53 1024 acc + B2R 53 1024 t') <= 100 * NN)%R by (apply Rabs_le; lra).
  apply Rabs_le_inv in Rx. repeat split; [exact Faa|rewrite Va; apply Rabs_le; lra| |lra..].
  eapply Rle_trans; [apply Rplus_le_compat_r, Rabs_triang|]. lra.
Qed.

Definition rv (b : N) : R := (IZR (f64_scaled b) * bpow radix2 (-1074))%R.

(* checked on the value scaled down by 2^1022 (DetectProofs.f64_small), to keep the evaluated integers short *)
Definition entry_ok (b : N) : bool :=
  match f64_of_bits b with
  | B754_finite _ _ s m e _ =>
    (1023 <=? (Z.of_N b / 2 ^ 52) mod 2 ^ 11) && (f64_small b =? SpecFloat.cond_Zopp s (Zpos m) * 2 ^ (e + 52)) && (-52 <=? e) &&
    (Z.abs (f64_small b) <=? 32 * 2 ^ 52)
  | _ => false
  end.

(* The tables repeat a handful of bit patterns: each is decoded once.  Equality is decided by N.eqb: N.eq_dec computes
   through its proof terms and is slow to evaluate. *)
Definition N_eqb_dec (x y : N) : {x = y} + {x <> y} :=
  (if N.eqb x y as c return N.eqb x y = c -> _
   then fun E => left (proj1 (N.eqb_eq x y) E) else fun E => right (proj1 (N.eqb_neq x y) E)) eq_refl.

Lemma tables_ok : forallb entry_ok (nodup N_eqb_dec (detect_DNA ++ detect_protein)) = true.
Proof. vm_compute. reflexivity. Qed.

Lemma table_entry_ok tab : incl tab (detect_DNA ++ detect_protein) -> Forall (fun b => entry_ok b = true) tab.
Proof.
  intros H. apply Forall_forall. intros b Hb.
  exact (proj1 (forallb_forall _ _) tables_ok b (proj2 (nodup_In _ _ _) (H b Hb))).
Qed.

Lemma entry_ok_spec b : entry_ok b = true ->
  B2R 53 1024 (f64_of_bits b) = rv b /\ is_finite 53 1024 (f64_of_bits b) = true /\ (Rabs (rv b) <= 32)%R.
Proof.
  unfold entry_ok, rv. destruct (f64_of_bits b) as [s|s|s pl Hp|s m e Hb] eqn:Eb; try discriminate; intros H.
  repeat (apply andb_true_iff in H; destruct H as [H ?]). apply Z.leb_le in H. rewrite (f64_scaled_small b H).
  assert (S : (IZR (f64_small b * 2 ^ 1022) * bpow radix2 (-1074) = IZR (f64_small b) * bpow radix2 (-52))%R).
  { rewrite mult_IZR, (IZR_Zpower radix2), Rmult_assoc, <- bpow_plus by lia. reflexivity. }
  rewrite S. split; [|split; [reflexivity|]].
  - apply Z.eqb_eq in H2. apply Z.leb_le in H1. unfold B2R, F2R. cbn [Fnum Fexp].
    rewrite H2, mult_IZR, (IZR_Zpower radix2), Rmult_assoc, <- bpow_plus by lia. f_equal. f_equal. lia.
  - apply Z.leb_le, IZR_le in H0. rewrite mult_IZR, abs_IZR, (IZR_Zpower radix2) in H0 by lia.
    rewrite Rabs_mult, (Rabs_pos_eq (bpow radix2 (-52))) by apply bpow_ge_0.
    apply (Rmult_le_compat_r (bpow radix2 (-52))) in H0; [|apply bpow_ge_0].
    rewrite Rmult_assoc, <- bpow_plus in H0. change (bpow radix2 (52 + -52)) with 1%R in H0. lra.
Qed.

(* detect_loop runs two independent accumulations over the same histogram; [sum_loop] is one of them *)
Fixpoint sum_loop (i : Z) (freq : list Z) (tab : list N) (s : f64) : f64 :=
  match freq, tab with
  | c :: f', d :: t' =>
    sum_loop (i + 1) f' t' (if negb (c =? 0) && isalpha i then f64_add s (f64_mul (f64_of_bits d) (f64_of_Z c)) else s)
  | _, _ => s
  end.

Lemma detect_loop_split : forall freq dna prot i sd sp, length dna = length prot ->
  detect_loop i freq dna prot sd sp = (sum_loop i freq dna sd, sum_loop i freq prot sp).
Proof.
  induction freq as [|c freq IH]; intros [|d dna] [|p prot] i sd sp L; try discriminate L; try reflexivity.
  cbn [detect_loop sum_loop]. injection L as L. destruct (negb (c =? 0) && isalpha i); apply IH; exact L.
Qed.

Fixpoint rloop (i : Z) (freq : list Z) (tab : list N) : R :=
  match freq, tab with
  | c :: f', d :: t' => ((if negb (c =? 0) && isalpha i then IZR c * rv d else 0) + rloop (i + 1) f' t')%R
  | _, _ => 0%R
  end.

Lemma total_range : forall freq i, Forall (fun c => 0 <= c < 2 ^ 31) freq ->
  0 <= total_letters i freq <= Z.of_nat (length freq) * 2 ^ 31.
Proof.
  induction freq as [|c f IH]; intros i H; [cbn; lia|]. apply Forall_cons_iff in H. destruct H as [Hc H'].
  cbn [total_letters length]. specialize (IH (i + 1) H'). rewrite Nat2Z.inj_succ. destruct (isalpha i); lia.
Qed.

Lemma sum_err : forall freq tab i s S E NN,
  Forall (fun b => entry_ok b = true) tab -> length tab = length freq -> Forall (fun c => 0 <= c < 2 ^ 31) freq ->
  err_inv NN (total_letters i freq) (length freq) s S E ->
  err_inv NN 0 0 (sum_loop i freq tab s) (S + rloop i freq tab) (E + INR (length freq) * delta NN).
Proof.
  induction freq as [|c freq IH]; intros tab i s S E NN Ht Lt Hf Inv.
  - destruct tab; [|discriminate]. cbn [sum_loop rloop length INR]. rewrite Rmult_0_l, !Rplus_0_r. exact Inv.
  - destruct tab as [|d tab]; [discriminate|]. injection Lt as Lt.
    apply Forall_cons_iff in Ht. destruct Ht as [Od Ht']. apply Forall_cons_iff in Hf. destruct Hf as [Hc Hf'].
    pose proof (proj1 (total_range freq (i + 1) Hf')) as Tn. destruct (entry_ok_spec d Od) as (Vd & Fd & Rd).
    cbn [sum_loop rloop total_letters length] in *. rewrite S_INR.
    replace (E + (INR (length freq) + 1) * delta NN)%R with (E + delta NN + INR (length freq) * delta NN)%R by ring.
    destruct (negb (c =? 0) && isalpha i) eqn:Cond.
    + apply andb_true_iff in Cond. destruct Cond as [Cz Ca]. apply negb_true_iff, Z.eqb_neq in Cz. rewrite Ca in Inv.
      rewrite <- Vd in Rd. rewrite <- Vd, <- Rplus_assoc, (Rmult_comm (IZR c)).
      apply IH; try assumption. apply err_inv_count; try assumption; lia.
    + rewrite Rplus_0_l. apply IH; try assumption. eapply err_inv_skip; [exact Inv|]. destruct (isalpha i); lia.
Qed.

Lemma rloop_margin : forall freq dna prot i, length dna = length freq -> length prot = length freq ->
  (rloop i freq dna - rloop i freq prot =
   IZR (exact_loop i freq (map (fun dp => (f64_scaled (fst dp) - f64_scaled (snd dp))%Z) (combine dna prot))) * bpow radix2 (-1074))%R.
Proof.
  (* no bare cbn here: it would unfold bpow radix2 (-1074) into a 324-digit constant *)
  induction freq as [|c freq IH]; intros dna prot i Ld Lp.
  - destruct dna, prot; cbn [rloop exact_loop map combine]; ring.
  - destruct dna as [|d dna]; [discriminate|]. destruct prot as [|p prot]; [discriminate|].
    cbn [length] in Ld, Lp. injection Ld as Ld. injection Lp as Lp.
    cbn [rloop combine map exact_loop fst snd]. rewrite plus_IZR, Rmult_plus_distr_r, <- (IH dna prot (i + 1) Ld Lp).
    destruct (negb (c =? 0) && isalpha i); [|ring]. unfold rv. rewrite mult_IZR, minus_IZR. ring.
Qed.

Lemma table_sum_err freq tab : incl tab (detect_DNA ++ detect_protein) -> length tab = 128%nat ->
  length freq = 128%nat -> Forall (fun c => 0 <= c < 2 ^ 31) freq ->
  let n := total_letters 0 freq in 1 <= n ->
  let r := sum_loop 0 freq tab f64_zero in
  is_finite 53 1024 r = true /\ (Rabs (B2R 53 1024 r - rloop 0 freq tab) <= 128 * delta (IZR n))%R.
Proof.
  intros Ht Lt Hl Hf n Hn.
  assert (Nb : n <= 2 ^ 40).
  { pose proof (proj2 (total_range freq 0 Hf)) as B. rewrite Hl in B. fold n in B. change (Z.of_nat 128 * 2 ^ 31) with (2 ^ 38) in B.
    assert (2 ^ 38 <= 2 ^ 40) by (apply Z.pow_le_mono_r; lia). lia. }
  pose proof (err_inv_start n (conj Hn Nb)) as I0. rewrite <- Hl in I0 at 1.
  destruct (sum_err freq tab 0 _ _ _ _ (table_entry_ok tab Ht) ltac:(congruence) Hf I0) as (F & B & _).
  rewrite Hl, !Rplus_0_l, INR_IZR_INZ in B. change (IZR (Z.of_nat 128)) with 128%R in B. split; assumption.
Qed.

Lemma units_lt a b : a * unit1074 < b -> (IZR a < IZR b * bpow radix2 (-1074))%R.
Proof.
  intros H. apply IZR_lt in H. rewrite mult_IZR in H.
  assert (U : (IZR unit1074 * bpow radix2 (-1074) = 1)%R).
  { unfold unit1074. rewrite (IZR_Zpower radix2), <- bpow_plus by lia. reflexivity. }
  apply (Rmult_lt_compat_r (bpow radix2 (-1074))) in H; [|apply bpow_gt_0]. rewrite Rmult_assoc, U in H. lra.
Qed.

(* the binary64 comparison decides like the exact margin unless that margin is tiny: each sum is within 2^-38 n of its
   exact value, so the sign of their difference is safe above 2^-37 per counted letter *)
Theorem float_decides_like_exact freq :
  length freq = 128%nat -> Forall (fun c => 0 <= c < 2 ^ 31) freq ->
  let n := total_letters 0 freq in
  1 <= n -> n * unit1074 < 2 ^ 37 * Z.abs (exact_margin freq) ->
  detect_alphabet freq = Some (if 0 <? exact_margin freq then ALN_BIOTYPE_DNA else ALN_BIOTYPE_PROTEIN).
Proof.
  intros Hl Hf n Hn Hm.
  destruct (table_sum_err freq detect_DNA (incl_appl _ (incl_refl _)) eq_refl Hl Hf Hn) as (Fd & Ed).
  destruct (table_sum_err freq detect_protein (incl_appr _ (incl_refl _)) eq_refl Hl Hf Hn) as (Fp & Ep).
  pose proof (rloop_margin freq detect_DNA detect_protein 0 ltac:(rewrite Hl; reflexivity) ltac:(rewrite Hl; reflexivity)) as RM.
  fold margins in RM. fold (exact_margin freq) in RM. fold n in Ed, Ep.
  unfold detect_alphabet, detect_sums. rewrite detect_loop_split by reflexivity.
  set (sd := sum_loop 0 freq detect_DNA f64_zero) in *. set (sp := sum_loop 0 freq detect_protein f64_zero) in *.
  set (D := rloop 0 freq detect_DNA) in *. set (P := rloop 0 freq detect_protein) in *.
  set (mg := exact_margin freq) in *. rewrite delta_val in Ed, Ep.
  pose proof (units_lt _ _ Hm) as Big. rewrite mult_IZR, abs_IZR in Big. change (IZR (2 ^ 37)) with 137438953472%R in Big.
  assert (NR : (1 <= IZR n)%R) by (apply (IZR_le 1); lia).
  unfold f64_eq, f64_gt.
  rewrite (compare64 sd sp Fd Fp), (compare64 sp sd Fp Fd).
  apply Rabs_le_inv in Ed. apply Rabs_le_inv in Ep.
  (* each float sum is within 128 * 2^-45 n = 2^-38 n of its exact sum; D - P = mg * 2^-1074 is more than 2^-37 n from 0 *)
  destruct (Z.ltb_spec 0 mg) as [Pos|Neg].
  - assert (G : (B2R 53 1024 sp < B2R 53 1024 sd)%R).
    { rewrite Rabs_pos_eq in Big by (apply (IZR_le 0); lia). lra. }
    rewrite (Rcompare_Gt _ _ G). reflexivity.
  - assert (Hz : mg <> 0) by (intros Q; rewrite Q, Z.mul_0_r in Hm; pose proof unit_pos; lia).
    assert (G : (B2R 53 1024 sd < B2R 53 1024 sp)%R).
    { rewrite Rabs_left in Big by (apply (IZR_lt _ 0); lia). lra. }
    rewrite (Rcompare_Lt _ _ G), (Rcompare_Gt _ _ G). reflexivity.
Qed.

(* a margin of 1/10000 nat per counted letter is far above that threshold *)
Lemma decided_by_clear_margin freq :
  length freq = 128%nat -> Forall (fun c => 0 <= c < 2 ^ 31) freq -> 0 < total_letters 0 freq ->
  total_letters 0 freq * unit1074 <= 10000 * Z.abs (exact_margin freq) ->
  detect_alphabet freq = Some (if 0 <? exact_margin freq then ALN_BIOTYPE_DNA else ALN_BIOTYPE_PROTEIN).
Proof.
  intros Hl Hf Hn Hm. apply float_decides_like_exact; [assumption..|lia|]. change (2 ^ 37) with 137438953472.
  pose proof (Z.mul_pos_pos _ _ Hn unit_pos). lia.
Qed.

Lemma hist_nonneg_of : forall freq, Forall (fun c => 0 <= c < 2 ^ 31) freq -> hist_nonneg freq.
Proof. induction freq as [|c f IH]; intros H; [exact I|]. apply Forall_cons_iff in H. destruct H as [Hc H']. split; [lia|apply IH; exact H']. Qed.

