(* C03, towards order independence: strncmp is a strict weak order, so the (length, name) comparison is a total
   preorder on distinguishable records; sorting and the later stages commute with forgetting the ranks ([strip]). *)
From KV Require Import Base Sort SortProofs ApiProofs.
Local Open Scope Z_scope.

Lemma strncmp_range n : forall a b, strncmp n a b = -1 \/ strncmp n a b = 0 \/ strncmp n a b = 1.
Proof.
  induction n as [|n IH]; intros a b; simpl; auto.
  destruct a as [|x a], b as [|y b]; auto.
  - destruct (uchar y =? 0); auto.
  - destruct (uchar x =? 0); auto.
  - destruct (uchar x <? uchar y); auto. destruct (uchar y <? uchar x); auto.
    destruct (uchar x =? 0); auto.
Qed.

Lemma uchar_nonneg c : 0 <= uchar c.
Proof. unfold uchar. apply Z.mod_pos_bound. lia. Qed.

Lemma strncmp_opp n : forall a b, strncmp n b a = - strncmp n a b.
Proof.
  induction n as [|n IH]; intros a b; [reflexivity|]. cbn [strncmp].
  destruct a as [|x a], b as [|y b]; try reflexivity.
  - destruct (uchar y =? 0); reflexivity.
  - destruct (uchar x =? 0); reflexivity.
  - destruct (Z.ltb_spec (uchar x) (uchar y)), (Z.ltb_spec (uchar y) (uchar x)); try lia; try reflexivity.
    replace (uchar y) with (uchar x) by lia. destruct (uchar x =? 0); [reflexivity|apply IH].
Qed.

Lemma strncmp_antisym n a b : strncmp n a b < 0 -> strncmp n b a > 0.
Proof. rewrite (strncmp_opp n a b). lia. Qed.

Lemma strncmp_flip n a b : strncmp n a b = 1 -> strncmp n b a = -1.
Proof. rewrite (strncmp_opp n a b). lia. Qed.

Ltac uch := repeat match goal with
  | c : Z |- _ => lazymatch goal with | H : 0 <= uchar c |- _ => fail | _ => pose proof (uchar_nonneg c) end
  end.
Ltac cases_cmp := repeat match goal with
    | |- context [?u <? ?v] => let E := fresh "E" in destruct (Z.ltb_spec u v) as [E|E]
    | |- context [?u =? ?v] => let E := fresh "E" in destruct (Z.eqb_spec u v) as [E|E]
    end.

Lemma strncmp_trans n : forall a b c, strncmp n a b < 0 -> strncmp n b c < 0 -> strncmp n a c < 0.
Proof.
  induction n as [|n IH]; intros a b c; simpl; [lia|].
  destruct a as [|x a], b as [|y b], c as [|z c]; try lia; uch; cases_cmp; try lia.
  apply IH.
Qed.

Definition plen (p : list Z * list Z) : Z := Z.of_nat (length (snd p)).
Definition cmp_p (x y : list Z * list Z) : Z :=
  if plen y <? plen x then -1
  else if plen x =? plen y then (if strncmp 256 (fst x) (fst y) <? 0 then -1 else 1)
  else 1.

Lemma cmp_strip x y : cmp_len_name x y = cmp_p (strip x) (strip y).
Proof. reflexivity. Qed.

Lemma cmp_p_le x y : cmp_p x y <= 0 <->
  plen y < plen x \/ (plen x = plen y /\ strncmp 256 (fst x) (fst y) < 0).
Proof.
  unfold cmp_p.
  destruct (Z.ltb_spec (plen y) (plen x)), (Z.eqb_spec (plen x) (plen y)), (Z.ltb_spec (strncmp 256 (fst x) (fst y)) 0); lia.
Qed.

Lemma cmp_p_trans x y z : cmp_p x y <= 0 -> cmp_p y z <= 0 -> cmp_p x z <= 0.
Proof.
  rewrite !cmp_p_le. intros [A|[A A']] [B|[B B']]; try lia.
  right. split; [lia|]. exact (strncmp_trans 256 _ _ _ A' B').
Qed.

Lemma cmp_p_asym x y : cmp_p x y <= 0 -> cmp_p y x <= 0 -> False.
Proof. rewrite !cmp_p_le, (strncmp_opp 256 (fst x) (fst y)). lia. Qed.

(* the premise of C03: any two records of equal length have names that differ within the first
   256 bytes (that is what sort_by_len_name compares) *)
Definition distinguishable (x y : list Z * list Z) : Prop :=
  plen x = plen y -> strncmp 256 (fst x) (fst y) <> 0.

Lemma cmp_p_total x y : distinguishable x y -> cmp_p x y <= 0 \/ cmp_p y x <= 0.
Proof.
  unfold distinguishable. rewrite !cmp_p_le, (strncmp_opp 256 (fst x) (fst y)). intro Hd.
  destruct (strncmp_range 256 (fst x) (fst y)) as [R|[R|R]]; lia.
Qed.

Definition pairwise_distinguishable (l : list (list Z * list Z)) : Prop :=
  ForallOrdPairs (fun x y => distinguishable x y /\ distinguishable y x) l.

Lemma strip_msort l : map strip (sort_len_name l) = msort cmp_p (map strip l).
Proof.
  unfold sort_len_name.
  rewrite <- (map_id (msort cmp_p (map strip l))).
  apply (Forall2_map_eq (fun (r : srec) (p : list Z * list Z) => strip r = p) strip (fun p => p)).
  - intros x y H. exact H.
  - apply msort_Forall2.
    + intros x x' y y' <- <-. apply cmp_strip.
    + clear. induction l; simpl; constructor; auto.
Qed.

Lemma map_id_eq {A} (l : list A) : map (fun p => p) l = l.
Proof. apply map_id. Qed.

Lemma strip_aligned : forall s1 s2 (gaps : list (list nat)), map strip s1 = map strip s2 ->
  map strip (map mk_aligned (combine gaps s1)) = map strip (map mk_aligned (combine gaps s2)).
Proof.
  induction s1 as [|r s1 IH]; intros [|r' s2] gaps Hs; simpl in Hs; try discriminate.
  - destruct gaps; reflexivity.
  - destruct gaps as [|g gaps]; [reflexivity|]. cbn [combine map].
    inversion Hs as [[Hn Hr Hrest]].
    unfold mk_aligned at 1 3. unfold strip at 1 3. cbn [fst snd r_name r_res]. rewrite Hn, Hr.
    f_equal. apply IH. exact Hrest.
Qed.

(* the records the input check keeps, as C03_order_invariance states its premise *)
Definition nonempty_p (p : list Z * list Z) : bool := match snd p with [] => false | _ => true end.
