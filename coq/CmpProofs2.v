(* C17, towards independence of the row order: rows with pairwise different names have one sorted order
   (sort_both_canonical), and two alignments that are the same up to row order and all-gap columns present, once
   sorted, related rows in the same positions (rows_related). *)
From KV Require Import Base Sort SortProofs Weave Cmp OrderProofs.
From Coq Require Import Permutation.
Local Open Scope Z_scope.

Lemma strncmp_refl n : forall a, strncmp n a a = 0.
Proof.
  induction n as [|n IH]; intros [|x a]; simpl; auto.
  rewrite Z.ltb_irrefl. destruct (uchar x =? 0); auto.
Qed.

Definition name_differs (x y : crow) : Prop :=
  strncmp 256 (c_name x) (c_name y) <> 0 /\ strncmp 256 (c_name y) (c_name x) <> 0.
Definition names_distinct (l : list crow) : Prop := ForallOrdPairs name_differs l.

Lemma le_both_iff l x y : names_distinct l -> In x l -> In y l ->
  (cmp_both x y <= 0 <-> strncmp 256 (c_name x) (c_name y) < 0).
Proof.
  intros Hd Hx Hy. unfold cmp_both.
  destruct (Z.ltb_spec (strncmp 256 (c_name x) (c_name y)) 0) as [L|L]; [split; [auto|lia]|].
  destruct (Z.eqb_spec (strncmp 256 (c_name x) (c_name y)) 0) as [E|E]; [|split; lia].
  destruct (ForallOrdPairs_In Hd x y Hx Hy) as [<-|[[A B]|[A B]]]; [|contradiction..].
  rewrite Z.ltb_irrefl. lia.
Qed.

Lemma distinct_comparable l : names_distinct l -> ForallOrdPairs (fun x y => cmp_both x y <= 0 \/ cmp_both y x <= 0) l.
Proof.
  induction 1 as [|a l Ha Hl IH]; constructor; [|exact IH]. eapply Forall_impl; [|exact Ha]. intros b [A B]. unfold cmp_both.
  destruct (strncmp_range 256 (c_name a) (c_name b)) as [R|[R|R]];
    [left; rewrite R|contradiction|right; rewrite (strncmp_flip 256 _ _ R)]; simpl; lia.
Qed.

(* C17: the order of the rows in either argument does not matter *)
Theorem sort_both_canonical l l' :
  names_distinct l -> Permutation l l' -> msort cmp_both l = msort cmp_both l'.
Proof.
  intros Hd Hp. apply msort_canonical; auto using distinct_comparable.
  - intros x y z Hx Hy Hz H1 H2. apply (le_both_iff l) in H1, H2; auto. apply (le_both_iff l); auto. eapply strncmp_trans; eauto.
  - intros x y Hx Hy H1 H2. apply (le_both_iff l) in H1, H2; auto. pose proof (strncmp_antisym 256 _ _ H1). lia.
Qed.

Lemma Forall2_in_both {A B} (Q : A -> B -> Prop) L L' : forall l l', Forall2 Q l l' -> incl l L -> incl l' L' ->
  Forall2 (fun x y => In x L /\ In y L' /\ Q x y) l l'.
Proof.
  induction 1 as [|x y l l' Hxy H IH]; intros I I'; constructor.
  - split; [apply I; left; reflexivity|split; [apply I'; left; reflexivity|exact Hxy]].
  - apply IH; intros z Hz; [apply I|apply I']; right; exact Hz.
Qed.

Section Same.
Variables (ng1 ng2 : list nat) (w : nat).
Variables (R T0 : list crow).

(* row x of the reference and row x' of the test are the same core row with all-gap columns
   inserted (ng1 resp. ng2 are common to all rows), under the same name *)
Definition same_row (x x' : crow) : Prop :=
  c_name x = c_name x' /\ exists c, length c = w /\ c_row x = expand ng1 c /\ c_row x' = expand ng2 c.

Definition rel_in (x x' : crow) : Prop := In x R /\ In x' T0 /\ same_row x x'.

Hypothesis HR : names_distinct R.
Hypothesis HT0 : names_distinct T0.

Lemma rel_in_cmp x x' y y' : rel_in x x' -> rel_in y y' -> cmp_both x y = cmp_both x' y'.
Proof.
  intros (Ix & Ix' & Nx & _) (Iy & Iy' & Ny & _). unfold cmp_both.
  rewrite <- Nx, <- Ny.
  destruct (Z.ltb_spec (strncmp 256 (c_name x) (c_name y)) 0); auto.
  destruct (Z.eqb_spec (strncmp 256 (c_name x) (c_name y)) 0) as [E|E]; auto.
  (* equal names: both are one and the same row on each side *)
  assert (x = y) as ->.
  { destruct (ForallOrdPairs_In HR x y Ix Iy) as [|[[A B]|[A B]]]; auto; congruence. }
  assert (x' = y') as ->.
  { destruct (ForallOrdPairs_In HT0 x' y' Ix' Iy') as [|[[A B]|[A B]]]; auto.
    - rewrite <- Nx, <- Ny in A. congruence.
    - rewrite <- Nx, <- Ny in B. congruence. }
  rewrite !Z.ltb_irrefl. reflexivity.
Qed.

Lemma rows_related : forall l l', Forall2 rel_in l l' ->
  Forall (fun p => exists c, length c = w /\ fst p = expand ng1 c /\ snd p = expand ng2 c) (combine (map c_row l) (map c_row l')).
Proof. induction 1 as [|x x' l l' (_ & _ & _ & Hc) H IH]; constructor; assumption. Qed.

End Same.
