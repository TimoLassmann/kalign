(* Weave-level theorems for C08 (identical inputs): a merge whose expanded path consists of matches only
   inserts no gap anywhere; the diagonal raw path expands to matches only.  Pure lists, no floats. *)
From KV Require Import ListFacts Base Weave WeaveProofs AssemblyProofs.
Local Open Scope nat_scope.

Lemma sum_nat_zeros k : sum_nat (repeat 0 k) = 0.
Proof. induction k; simpl; auto. Qed.

Lemma update_gaps_zeros : forall gis m, update_gaps gis (repeat 0 m) = gis.
Proof.
  induction gis as [|g gis IH]; intro m; [reflexivity|].
  cbn [update_gaps]. rewrite firstn_repeat, sum_nat_zeros, Nat.add_0_r, skipn_repeat, IH. reflexivity.
Qed.

Lemma gapvec_a_matches k c : gapvec_a (repeat OM k) c = c :: repeat 0 k.
Proof. revert c; induction k; intro c; simpl; [reflexivity|]. rewrite IHk. reflexivity. Qed.
Lemma gapvec_b_matches k c : gapvec_b (repeat OM k) c = c :: repeat 0 k.
Proof. revert c; induction k; intro c; simpl; [reflexivity|]. rewrite IHk. reflexivity. Qed.

Lemma upd_member_zeros m ms gaps : upd_member (repeat 0 m) ms gaps = gaps.
Proof.
  unfold upd_member.
  assert (H : forall (l : list (list nat)) s, map (fun ig : nat * list nat => if existsb (Nat.eqb (fst ig)) ms then update_gaps (snd ig) (repeat 0 m) else snd ig)
                        (combine (seq s (length l)) l) = l).
  { induction l as [|g l IH]; intro s; simpl; [reflexivity|].
    rewrite update_gaps_zeros. destruct (existsb _ ms); f_equal; apply IH. }
  apply H.
Qed.

Definition all_match (ops : list Z) : Prop := Forall (fun o => o = 0%Z) ops.

Lemma kinds_all_match ops : all_match ops -> map op_kind ops = repeat OM (length ops).
Proof. induction 1 as [|o ops E _ IH]; simpl; [reflexivity|]. subst o. rewrite IH. reflexivity. Qed.

Lemma make_seq_all_match ops ma mb gaps : all_match ops -> make_seq ops ma mb gaps = gaps.
Proof.
  intro H. unfold make_seq. rewrite (kinds_all_match ops H), gapvec_a_matches, gapvec_b_matches.
  change (0 :: repeat 0 (length ops)) with (repeat 0 (S (length ops))).
  rewrite !upd_member_zeros. reflexivity.
Qed.

(* C08, weave layer: if every merge of a run aligns its two groups column by column, no gap vector ever
   changes - whatever the guide tree *)
Theorem all_match_run_keeps_gaps : forall (tasks : list task) st,
  Forall (fun t => all_match (snd t)) tasks -> w_gaps (run_from st tasks) = w_gaps st.
Proof.
  induction tasks as [|[[[a b] c] ops] tasks IH]; intros st H; [reflexivity|].
  change (run_from st ((a, b, c, ops) :: tasks)) with (run_from (merge_step st a b c ops) tasks).
  inversion H; subst. rewrite IH by assumption. unfold merge_step. cbn [w_gaps]. apply make_seq_all_match. assumption.
Qed.

Theorem all_match_run_no_gaps : forall seqs tasks,
  Forall (fun t => all_match (snd t)) tasks ->
  final_rows (run_merges (map (@length Z) seqs) tasks) seqs = seqs.
Proof.
  intros seqs tasks H. unfold final_rows. rewrite run_merges_from, all_match_run_keeps_gaps by assumption.
  unfold init_wstate. cbn [w_gaps]. rewrite map_map.
  induction seqs as [|s seqs IH]; cbn [map combine fst snd]; [reflexivity|]. rewrite IH, expand_zero. reflexivity.
Qed.

Definition diag (L : nat) : list Z := map (fun i => (Z.of_nat i + 1)%Z) (seq 0 L).

Lemma rest_ops_consecutive : forall k b, (0 <= b)%Z ->
  rest_ops b (map (fun i => (b + 1 + Z.of_nat i)%Z) (seq 0 k)) = repeat 0%Z k.
Proof.
  induction k as [|k IH]; intros b Hb; [reflexivity|].
  cbn [seq map rest_ops]. rewrite Z.add_0_r.
  replace (b + 1 =? -1)%Z with false by (symmetry; apply Z.eqb_neq; lia).
  replace (b + 1 - 1 =? b)%Z with true by (symmetry; apply Z.eqb_eq; lia).
  cbn [negb andb app repeat]. f_equal.
  rewrite <- seq_shift, map_map. rewrite <- (IH (b + 1)%Z) by lia. f_equal. apply map_ext. intro i. lia.
Qed.

Lemma last_diag L : last (diag (S L)) (-1)%Z = Z.of_nat (S L).
Proof.
  unfold diag. rewrite seq_S, map_app. cbn [map]. rewrite last_last. lia.
Qed.

Lemma rev_zeros k : rev (repeat 0%Z k) = repeat 0%Z k.
Proof.
  induction k as [|k IH]; [reflexivity|]. simpl. rewrite IH. clear IH.
  induction k as [|k IH]; [reflexivity|]. simpl. rewrite IH. reflexivity.
Qed.

Lemma flag_leading_zeros k : flag_leading (repeat 0%Z k) = repeat 0%Z k.
Proof. destruct k; reflexivity. Qed.

Lemma raw_ops_diag L : raw_ops (Z.of_nat (S L)) (diag (S L)) = repeat 0%Z (S L).
Proof.
  unfold raw_ops.
  assert (D : diag (S L) = 1%Z :: map (fun i => (1 + 1 + Z.of_nat i)%Z) (seq 0 L)).
  { unfold diag. cbn [seq map]. f_equal. rewrite <- seq_shift, map_map. apply map_ext. intro i. lia. }
  unfold tail_ops. rewrite last_diag. rewrite D.
  cbn [first_ops Z.eqb Pos.eqb negb]. rewrite rest_ops_consecutive by lia.
  replace (Z.of_nat (S L) <? Z.of_nat (S L))%Z with false by (symmetry; apply Z.ltb_ge; lia).
  cbn [andb app]. rewrite app_nil_r. reflexivity.
Qed.

Theorem diagonal_path_all_match : forall L, (1 <= L)%nat ->
  add_gap_info (Z.of_nat L) (diag L) = Some (repeat 0%Z L).
Proof.
  intros [|L] H; [lia|]. unfold add_gap_info. rewrite raw_ops_diag.
  cbn [existsb repeat Z.eqb orb].
  change (0%Z :: repeat 0%Z L) with (repeat 0%Z (S L)).
  unfold flag_terminal. rewrite flag_leading_zeros, rev_zeros, flag_leading_zeros, rev_zeros. reflexivity.
Qed.

Lemma all_match_zeros k : all_match (repeat 0%Z k).
Proof. apply Forall_forall. intros x Hx. apply repeat_spec in Hx. exact Hx. Qed.
