(* C11, the 256-bit routine bpm_256 (AVX2): four 64-bit lanes with Yee's carry trick for the addition.
   The lane operations of Bpm.v (N modulo 2^64 per lane: and/or/xor/not, add256, shl256, testz, the match-mask
   construction) ARE the 256-bit word operations, so one step of bpm256 is one step of the bit-level routine at
   word width 256 (bpm_step_w of BpmBitsProofs.v), which returns the column recurrence. *)
From Coq Require Import ZArith NArith List Bool Lia.
From KV Require Import ListFacts Bpm BpmBits BpmBitsProofs.
Import ListNotations.
Local Open Scope N_scope.

Fixpoint nbits (k : nat) (x : N) : word :=
  match k with O => [] | S k' => N.odd x :: nbits k' (N.div2 x) end.
Definition lbits (l : lanes) : word := concat (map (nbits 64) l).
Definition lanes_ok (l : lanes) : Prop := length l = 4%nat /\ Forall (fun x => x < w64) l.

Lemma nbits_length k : forall x, length (nbits k x) = k.
Proof. induction k as [|k IH]; intro x; [reflexivity|]. cbn [nbits length]. rewrite IH. reflexivity. Qed.

Lemma nbits_testbit k : forall x, nbits k x = map (fun i => N.testbit x (N.of_nat i)) (seq 0 k).
Proof.
  induction k as [|k IH]; intro x; [reflexivity|]. cbn [nbits seq map]. rewrite IH, <- seq_shift, map_map, N.bit0_odd.
  f_equal. apply map_ext. intro i. rewrite Nat2N.inj_succ, N.div2_spec, N.shiftr_spec', N.add_1_r. reflexivity.
Qed.

Lemma nbits_ext k x y : (forall i, (i < k)%nat -> N.testbit x (N.of_nat i) = N.testbit y (N.of_nat i)) -> nbits k x = nbits k y.
Proof. intros H. rewrite !nbits_testbit. apply map_ext_in. intros i Hi. apply in_seq in Hi. apply H. lia. Qed.

Lemma nth_nbits k r x d : (r < k)%nat -> nth r (nbits k x) d = N.testbit x (N.of_nat r).
Proof. intros H. rewrite nbits_testbit, nth_map_seq by exact H. reflexivity. Qed.

Lemma nbits_mod k x : nbits k (x mod 2 ^ N.of_nat k) = nbits k x.
Proof. apply nbits_ext. intros i Hi. apply N.mod_pow2_bits_low. lia. Qed.

Lemma lbits_length A : length (lbits A) = (64 * length A)%nat.
Proof. unfold lbits. induction A as [|a A IH]; [reflexivity|]. cbn [map concat length]. rewrite app_length, nbits_length, IH. lia. Qed.

Lemma wbit_lbits : forall l i, (i < 64 * length l)%nat ->
  wbit (lbits l) i = N.testbit (nth (i / 64) l 0) (N.of_nat (i mod 64)).
Proof.
  unfold wbit, lbits. induction l as [|x l IH]; intros i H; [cbn [length] in H; lia|].
  cbn [map concat]. destruct (Nat.lt_ge_cases i 64) as [L|G].
  - rewrite app_nth1 by (rewrite nbits_length; exact L). rewrite Nat.div_small, Nat.mod_small by exact L.
    cbn [nth]. apply nth_nbits. exact L.
  - rewrite app_nth2 by (rewrite nbits_length; exact G). rewrite nbits_length.
    rewrite IH by (cbn [length] in H; lia).
    replace i with ((i - 64) + 1 * 64)%nat at 3 4 by lia.
    rewrite Nat.div_add, Nat.mod_add by lia. replace ((i - 64) / 64 + 1)%nat with (S ((i - 64) / 64)) by lia. reflexivity.
Qed.

Lemma lbits_ext A (f : nat -> bool) :
  (forall k r, (k < length A)%nat -> (r < 64)%nat -> N.testbit (nth k A 0) (N.of_nat r) = f (64 * k + r)%nat) ->
  lbits A = map f (seq 0 (64 * length A)).
Proof.
  intros H. apply (nth_ext _ _ false false); [rewrite lbits_length, map_length, seq_length; reflexivity|].
  intros i Hi. rewrite lbits_length in Hi. fold (wbit (lbits A) i). rewrite wbit_lbits, nth_map_seq by exact Hi.
  pose proof (Nat.div_mod i 64 ltac:(lia)) as DM. pose proof (Nat.mod_upper_bound i 64 ltac:(lia)) as MB.
  rewrite H by (try apply Nat.div_lt_upper_bound; lia). f_equal. lia.
Qed.

Lemma wzip_map f (g h : nat -> bool) : forall l, wzip f (map g l) (map h l) = map (fun i => f (g i) (h i)) l.
Proof. induction l as [|i l IH]; [reflexivity|]. cbn [map wzip]. rewrite IH. reflexivity. Qed.

Lemma nbits_bitwise (op : N -> N -> N) (f : bool -> bool -> bool) :
  (forall a b n, N.testbit (op a b) n = f (N.testbit a n) (N.testbit b n)) ->
  forall k a b, nbits k (op a b) = wzip f (nbits k a) (nbits k b).
Proof. intros H k a b. rewrite !nbits_testbit, wzip_map. apply map_ext. intro i. apply H. Qed.

Lemma wzip_app f : forall a1 b1 a2 b2, length a1 = length b1 ->
  wzip f (a1 ++ a2) (b1 ++ b2) = wzip f a1 b1 ++ wzip f a2 b2.
Proof.
  induction a1 as [|x a1 IH]; intros b1 a2 b2 H; destruct b1 as [|y b1]; try discriminate; [reflexivity|].
  cbn [app wzip]. f_equal. apply IH. cbn [length] in H. lia.
Qed.

Lemma lbits_lmap2 (f : N -> N -> N) (g : bool -> bool -> bool) :
  (forall a b, nbits 64 (f a b) = wzip g (nbits 64 a) (nbits 64 b)) ->
  forall A B, lbits (lmap2 f A B) = wzip g (lbits A) (lbits B).
Proof.
  intros H. unfold lbits, lmap2. induction A as [|a A IH]; intros [|b B]; cbn [combine map concat fst snd]; [reflexivity..| |].
  - destruct (nbits 64 a ++ _); reflexivity.
  - rewrite wzip_app by (rewrite !nbits_length; reflexivity). rewrite H, IH. reflexivity.
Qed.

Lemma wxor_ones : forall w, wxor w (repeat true (length w)) = wnotb w.
Proof. induction w as [|x w IH]; [reflexivity|]. cbn [length repeat]. unfold wxor, wnotb in *. cbn [wzip map]. rewrite IH. destruct x; reflexivity. Qed.

Lemma lbits_not A : lbits (l_not A) = wnotb (lbits A).
Proof.
  unfold lbits, l_not, wnot. induction A as [|a A IH]; [reflexivity|]. cbn [map concat]. rewrite IH.
  unfold wnotb. rewrite map_app. f_equal. rewrite (nbits_bitwise N.lxor xorb N.lxor_spec).
  rewrite <- (nbits_length 64 a) at 2. apply wxor_ones.
Qed.

Definition b2n (b : bool) : N := if b then 1 else 0.

Lemma full_adder x y c :
  N.odd (x + y + b2n c) = xorb (xorb (N.odd x) (N.odd y)) c /\
  N.div2 (x + y + b2n c) = N.div2 x + N.div2 y + b2n (maj (N.odd x) (N.odd y) c).
Proof.
  split.
  - rewrite !N.odd_add. destruct c; reflexivity.
  - rewrite !N.div2_div. change (b2n c) with (N.b2n c). rewrite N.add_carry_div2, !N.bit0_odd.
    unfold maj. destruct (N.odd x), (N.odd y), c; reflexivity.
Qed.

Fixpoint carry_out (a b : word) (c : bool) : bool :=
  match a, b with
  | x :: a', y :: b' => carry_out a' b' (maj x y c)
  | _, _ => c
  end.

Lemma wadd_app : forall a1 b1 a2 b2 c, length a1 = length b1 ->
  wadd_c (a1 ++ a2) (b1 ++ b2) c = wadd_c a1 b1 c ++ wadd_c a2 b2 (carry_out a1 b1 c).
Proof.
  induction a1 as [|x a1 IH]; intros b1 a2 b2 c H; destruct b1 as [|y b1]; try discriminate; [reflexivity|].
  cbn [app wadd_c carry_out]. f_equal. apply IH. cbn [length] in H. lia.
Qed.

Lemma wadd_nbits k : forall x y c, wadd_c (nbits k x) (nbits k y) c = nbits k (x + y + b2n c).
Proof.
  induction k as [|k IH]; intros x y c; [reflexivity|]. cbn [nbits wadd_c].
  destruct (full_adder x y c) as [E1 E2]. rewrite E1, E2, IH. reflexivity.
Qed.

Lemma carry_nbits k : forall x y c, x < 2 ^ N.of_nat k -> y < 2 ^ N.of_nat k ->
  carry_out (nbits k x) (nbits k y) c = (2 ^ N.of_nat k <=? x + y + b2n c).
Proof.
  induction k as [|k IH]; intros x y c Hx Hy.
  - change (2 ^ N.of_nat 0) with 1 in *. assert (x = 0) as -> by lia. assert (y = 0) as -> by lia. destruct c; reflexivity.
  - cbn [nbits carry_out]. rewrite Nat2N.inj_succ, N.pow_succ_r' in *.
    rewrite IH by (rewrite N.div2_div; apply N.div_lt_upper_bound; [discriminate|assumption]).
    destruct (full_adder x y c) as [_ E2]. rewrite <- E2, N.div2_div.
    destruct (N.leb_spec (2 * 2 ^ N.of_nat k) (x + y + b2n c)) as [L|L].
    + apply N.leb_le, N.div_le_lower_bound; [discriminate|exact L].
    + apply N.leb_gt, N.div_lt_upper_bound; [discriminate|exact L].
Qed.

Fixpoint ripple_lanes (A B : lanes) (c : bool) : lanes :=
  match A, B with
  | a :: A', b :: B' => (a + b + b2n c) mod w64 :: ripple_lanes A' B' (w64 <=? a + b + b2n c)
  | _, _ => []
  end.

Lemma wadd_lbits : forall A B c, Forall (fun x => x < w64) A -> Forall (fun x => x < w64) B ->
  wadd_c (lbits A) (lbits B) c = lbits (ripple_lanes A B c).
Proof.
  induction A as [|a A IH]; intros B c HA HB; destruct B as [|b B]; cbn [ripple_lanes]; unfold lbits; cbn [map concat].
  - reflexivity.
  - reflexivity.
  - match goal with |- wadd_c ?X [] c = [] => destruct X; reflexivity end.
  - inversion HA as [|? ? Ha HA']; subst. inversion HB as [|? ? Hb HB']; subst.
    rewrite wadd_app by (rewrite !nbits_length; reflexivity).
    rewrite wadd_nbits, (carry_nbits 64), (nbits_mod 64) by assumption. f_equal. apply (IH B _ HA' HB').
Qed.
Lemma land_pow2_clear x r : N.testbit x r = false -> N.land x (2 ^ r) = 0.
Proof.
  intros H. apply N.bits_inj. intro k. rewrite N.land_spec, N.pow2_bits_eqb, N.bits_0.
  destruct (N.eqb_spec r k) as [<-|]; [rewrite H; reflexivity|apply andb_false_r].
Qed.
Lemma add_pow2_lor x r : N.testbit x r = false -> x + 2 ^ r = N.lor x (2 ^ r).
Proof. intros H. pose proof (land_pow2_clear x r H) as L. rewrite N.add_nocarry_lxor, N.lxor_lor by exact L. reflexivity. Qed.

Lemma bits_lt_pow2 x n m : x < 2 ^ n -> n <= m -> N.testbit x m = false.
Proof. intros H L. rewrite <- (N.mod_small x (2 ^ n) H). apply N.mod_pow2_bits_high. exact L. Qed.

Lemma mod_once x : w64 <= x < w64 + w64 -> x mod w64 = x - w64.
Proof.
  intros H. replace x with (x - w64 + 1 * w64) at 1 by lia.
  rewrite N.mod_add by discriminate. apply N.mod_small. lia.
Qed.

Lemma sgn64_flip y : y < w64 -> sgn64 ((y + high_bit) mod w64) = (Z.of_N y - Z.of_N high_bit)%Z.
Proof.
  intros H. destruct (N.lt_ge_cases y high_bit) as [L|G].
  - rewrite N.mod_small by (unfold w64, high_bit in *; lia).
    unfold sgn64. destruct (N.ltb_spec (y + high_bit) high_bit); unfold high_bit in *; lia.
  - rewrite mod_once by (unfold w64, high_bit in *; lia).
    unfold sgn64. destruct (N.ltb_spec (y + high_bit - w64) high_bit); unfold w64, high_bit in *; lia.
Qed.

Lemma carry_iff_lt a b : a < w64 -> b < w64 -> ((a + b) mod w64 <? a) = (w64 <=? a + b).
Proof.
  intros Ha Hb. destruct (N.leb_spec w64 (a + b)) as [C|C].
  - rewrite mod_once by lia. apply N.ltb_lt. lia.
  - rewrite N.mod_small by exact C. apply N.ltb_ge. lia.
Qed.

Lemma add_high_lxor x : x < high_bit -> x + high_bit = N.lxor x high_bit.
Proof. intros H. apply N.add_nocarry_lxor. apply (land_pow2_clear x 63), (bits_lt_pow2 x 63); [exact H|reflexivity]. Qed.

Lemma xor_high a : a < w64 -> N.lxor a high_bit = (a + high_bit) mod w64.
Proof.
  intros H. destruct (N.lt_ge_cases a high_bit) as [L|G].
  - rewrite <- add_high_lxor by exact L. symmetry. apply N.mod_small. unfold w64, high_bit in *. lia.
  - replace a with (a - high_bit + high_bit) at 1 by lia.
    rewrite add_high_lxor, N.lxor_assoc, N.lxor_nilpotent, N.lxor_0_r by (unfold w64, high_bit in *; lia).
    rewrite mod_once; unfold w64, high_bit in *; lia.
Qed.

Definition gen (a b : N) : bool := w64 <=? a + b.
Definition prop (a b : N) : bool := (a + b) mod w64 =? w64 - 1.

Lemma carry_gp a b cin : a < w64 -> b < w64 -> (w64 <=? a + b + b2n cin) = gen a b || (prop a b && cin).
Proof.
  intros Ha Hb. unfold gen, prop. destruct (N.leb_spec w64 (a + b)) as [C|C].
  - apply N.leb_le. lia.
  - rewrite N.mod_small by exact C. destruct cin; cbn [b2n orb andb].
    + rewrite andb_true_r. destruct (N.eqb_spec (a + b) (w64 - 1)); [apply N.leb_le|apply N.leb_gt]; unfold w64 in *; lia.
    + rewrite andb_false_r. apply N.leb_gt. lia.
Qed.

Lemma gp_exclusive a b : a < w64 -> b < w64 -> gen a b && prop a b = false.
Proof.
  intros Ha Hb. unfold gen, prop. destruct (N.leb_spec w64 (a + b)) as [C|C]; [|reflexivity].
  rewrite mod_once by lia. apply N.eqb_neq. unfold w64 in *. lia.
Qed.

(* add256 flips a's sign bit before adding (to get an unsigned compare out of _mm256_cmpgt_epi64): the lane sum it
   looks at is the true sum u = (a + b) mod 2^64 with the sign bit flipped *)
Lemma lane_sum a b : a < w64 -> wadd (N.lxor a high_bit) b = ((a + b) mod w64 + high_bit) mod w64.
Proof.
  intros Ha. rewrite (xor_high a Ha). unfold wadd. rewrite !N.add_mod_idemp_l by discriminate. f_equal. lia.
Qed.

Lemma lane_gen a b : a < w64 -> b < w64 ->
  (if (sgn64 (wadd (N.lxor a high_bit) b) <? sgn64 (N.lxor a high_bit))%Z then 1 else 0) = b2n (gen a b).
Proof.
  intros Ha Hb. pose proof (N.mod_lt (a + b) w64 ltac:(discriminate)) as Hu.
  rewrite lane_sum, (xor_high a Ha), !sgn64_flip by assumption. unfold gen. rewrite <- (carry_iff_lt a b Ha Hb).
  apply (f_equal b2n). destruct (N.ltb_spec ((a + b) mod w64) a); [apply Z.ltb_lt|apply Z.ltb_ge]; lia.
Qed.

(* with the sign bit flipped, "all ones" reads 2^63 - 1 *)
Lemma lane_prop a b : a < w64 -> (if N.eqb (wadd (N.lxor a high_bit) b) 9223372036854775807 then 1 else 0) = b2n (prop a b).
Proof.
  intros Ha. pose proof (N.mod_lt (a + b) w64 ltac:(discriminate)) as Hu. rewrite lane_sum by exact Ha. unfold prop.
  apply (f_equal b2n). destruct (N.eqb_spec ((a + b) mod w64) (w64 - 1)) as [->|Ne]; [reflexivity|]. apply N.eqb_neq. intro E.
  apply (f_equal sgn64) in E. rewrite sgn64_flip in E by exact Hu. apply Ne.
  change (sgn64 9223372036854775807) with 9223372036854775807%Z in E. unfold w64, high_bit in *. lia.
Qed.

(* the second addition puts the sign bit back and adds the carry that came in *)
Lemma lane_final a b (cin : bool) : a < w64 ->
  wadd (wadd (N.lxor a high_bit) b) (high_bit + (if cin then 1 else 0)) = (a + b + b2n cin) mod w64.
Proof.
  intros Ha. rewrite lane_sum by exact Ha. unfold wadd. rewrite N.add_mod_idemp_l by discriminate.
  change (if cin then 1 else 0) with (b2n cin).
  replace ((a + b) mod w64 + high_bit + (high_bit + b2n cin)) with ((a + b) mod w64 + b2n cin + 1 * w64) by (unfold w64, high_bit; lia).
  rewrite N.mod_add, N.add_mod_idemp_l by discriminate. reflexivity.
Qed.

(* the local [tonum] of add256: four lane flags as a 4-bit number *)
Definition tonum (bits : list N) : N := fold_right (fun b acc => b + 2 * acc) 0 bits.

Definition ball (f : bool -> bool) : bool := f true && f false.
Lemma ball_spec f : ball f = true -> forall b, f b = true.
Proof. unfold ball. intros H b. apply andb_true_iff in H. destruct b; apply H. Qed.

(* the carries into the four lanes, as a 4-bit mask (hence 15) *)
Definition yee_bits (g0 g1 g2 g3 p0 p1 p2 p3 : bool) : N :=
  let c := tonum [b2n g0; b2n g1; b2n g2; b2n g3] in
  let m := tonum [b2n p0; b2n p1; b2n p2; b2n p3] in
  N.land (N.lxor m (m + 2 * c)) 15.

(* eight Booleans: 256 cases, settled by one evaluation *)
Lemma yee_check g0 g1 g2 g3 p0 p1 p2 p3 :
  let m2 := yee_bits g0 g1 g2 g3 p0 p1 p2 p3 in
  (g0 && p0) || (g1 && p1) || (g2 && p2) || (g3 && p3) ||
  (negb (N.testbit m2 0) && eqb (N.testbit m2 1) g0 && eqb (N.testbit m2 2) (g1 || (p1 && g0)) &&
   eqb (N.testbit m2 3) (g2 || (p2 && (g1 || (p1 && g0))))) = true.
Proof.
  revert p3. apply ball_spec. revert p2. apply ball_spec. revert p1. apply ball_spec. revert p0. apply ball_spec.
  revert g3. apply ball_spec. revert g2. apply ball_spec. revert g1. apply ball_spec. revert g0. apply ball_spec.
  vm_compute. reflexivity.
Qed.

Lemma yee_trick (g0 g1 g2 g3 p0 p1 p2 p3 : bool) :
  g0 && p0 = false -> g1 && p1 = false -> g2 && p2 = false -> g3 && p3 = false ->
  let c := tonum [b2n g0; b2n g1; b2n g2; b2n g3] in
  let m := tonum [b2n p0; b2n p1; b2n p2; b2n p3] in
  let m2 := N.land (N.lxor m (m + 2 * c)) 15 in
  N.testbit m2 (N.of_nat 0) = false /\ N.testbit m2 (N.of_nat 1) = g0 /\ N.testbit m2 (N.of_nat 2) = g1 || (p1 && g0) /\
  N.testbit m2 (N.of_nat 3) = g2 || (p2 && (g1 || (p1 && g0))).
Proof.
  intros H0 H1 H2 H3. pose proof (yee_check g0 g1 g2 g3 p0 p1 p2 p3) as Y. cbv zeta in *.
  rewrite H0, H1, H2, H3 in Y. cbn [orb] in Y. fold (yee_bits g0 g1 g2 g3 p0 p1 p2 p3).
  apply andb_true_iff in Y as [Y Y3]. apply andb_true_iff in Y as [Y Y2]. apply andb_true_iff in Y as [Y0 Y1].
  repeat split; [apply negb_true_iff, Y0|apply eqb_prop, Y1|apply eqb_prop, Y2|apply eqb_prop, Y3].
Qed.

Lemma add256_ripple a0 a1 a2 a3 b0 b1 b2 b3 :
  a0 < w64 -> a1 < w64 -> a2 < w64 -> a3 < w64 -> b0 < w64 -> b1 < w64 -> b2 < w64 -> b3 < w64 ->
  add256 [a0; a1; a2; a3] [b0; b1; b2; b3] = ripple_lanes [a0; a1; a2; a3] [b0; b1; b2; b3] false.
Proof.
  intros A0 A1 A2 A3 B0 B1 B2 B3. unfold add256. cbn [map combine lmap2 fst snd seq].
  rewrite !lane_gen, !lane_prop by assumption.
  (* the carry into each lane, read off the bits of m ^ (m + 2c) *)
  destruct (yee_trick _ _ _ _ _ _ _ _ (gp_exclusive a0 b0 A0 B0) (gp_exclusive a1 b1 A1 B1) (gp_exclusive a2 b2 A2 B2)
              (gp_exclusive a3 b3 A3 B3)) as (Y0 & Y1 & Y2 & Y3). unfold tonum in *.
  rewrite Y0, Y1, Y2, Y3. change (high_bit + 0) with (high_bit + (if false then 1 else 0)).
  rewrite !lane_final by assumption. cbn [ripple_lanes].
  rewrite (carry_gp a0 b0), andb_false_r, orb_false_r, (carry_gp a1 b1), (carry_gp a2 b2) by assumption. reflexivity.
Qed.

Lemma lt_pow2_bits x n : (forall m, n <= m -> N.testbit x m = false) -> x < 2 ^ n.
Proof.
  intros H. assert (E : x mod 2 ^ n = x).
  { apply N.bits_inj. intro m. destruct (N.lt_ge_cases m n) as [L|G].
    - apply N.mod_pow2_bits_low. exact L.
    - rewrite N.mod_pow2_bits_high by exact G. symmetry. apply H. exact G. }
  rewrite <- E. apply N.mod_lt. apply N.pow_nonzero. discriminate.
Qed.

Lemma bitwise_lt (op : N -> N -> N) (f : bool -> bool -> bool) :
  (forall a b n, N.testbit (op a b) n = f (N.testbit a n) (N.testbit b n)) -> f false false = false ->
  forall a b, a < w64 -> b < w64 -> op a b < w64.
Proof.
  intros H F a b A B. change w64 with (2 ^ 64) in *. apply lt_pow2_bits. intros m Hm.
  rewrite H, (bits_lt_pow2 a 64 m A Hm), (bits_lt_pow2 b 64 m B Hm). exact F.
Qed.
Definition lor_lt := bitwise_lt N.lor orb N.lor_spec eq_refl.
Definition lxor_lt := bitwise_lt N.lxor xorb N.lxor_spec eq_refl.

(* Rl A a: the four lanes A, each below 2^64, are the 256-bit word a (lane 0 holds bits 0..63) *)
Definition Rl (A : lanes) (a : word) : Prop := lanes_ok A /\ lbits A = a.

Lemma lanes_ok_inv A : lanes_ok A ->
  exists a0 a1 a2 a3, A = [a0; a1; a2; a3] /\ a0 < w64 /\ a1 < w64 /\ a2 < w64 /\ a3 < w64.
Proof.
  intros [L F]. destruct A as [|a0 [|a1 [|a2 [|a3 [|]]]]]; try discriminate. exists a0, a1, a2, a3.
  inversion F as [|? ? F0 F']; subst. inversion F' as [|? ? F1 F'']; subst. inversion F'' as [|? ? F2 F''']; subst.
  inversion F''' as [|? ? F3 _]; subst. auto.
Qed.

Lemma Rl_lmap2 (f : N -> N -> N) (g : bool -> bool -> bool) :
  (forall a b n, N.testbit (f a b) n = g (N.testbit a n) (N.testbit b n)) -> g false false = false ->
  forall A a B b, Rl A a -> Rl B b -> Rl (lmap2 f A B) (wzip g a b).
Proof.
  intros Hbits G A a B b [[LA FA] <-] [[LB FB] <-]. split; [split|].
  - unfold lmap2. rewrite map_length, combine_length, LA, LB. reflexivity.
  - clear LA LB. revert B FB. induction FA as [|x A Hx FA IH]; intros B FB; [constructor|].
    destruct FB as [|y B Hy FB]; [constructor|]. constructor; [apply (bitwise_lt f g Hbits G); assumption|apply IH; exact FB].
  - apply lbits_lmap2. intros. apply nbits_bitwise, Hbits.
Qed.
Lemma Rl_and A a B b : Rl A a -> Rl B b -> Rl (l_and A B) (wand a b).
Proof. apply Rl_lmap2; [exact N.land_spec|reflexivity]. Qed.
Lemma Rl_or A a B b : Rl A a -> Rl B b -> Rl (l_or A B) (wor a b).
Proof. apply Rl_lmap2; [exact N.lor_spec|reflexivity]. Qed.
Lemma Rl_xor A a B b : Rl A a -> Rl B b -> Rl (l_xor A B) (wxor a b).
Proof. apply Rl_lmap2; [exact N.lxor_spec|reflexivity]. Qed.

Lemma Rl_not A a : Rl A a -> Rl (l_not A) (wnotb a).
Proof.
  intros [[L F] <-]. split; [split|apply lbits_not].
  - unfold l_not. rewrite map_length. exact L.
  - unfold l_not. apply Forall_map. eapply Forall_impl; [|exact F]. intros x Hx. apply lxor_lt; [exact Hx|reflexivity].
Qed.

Lemma Rl_add A a B b : Rl A a -> Rl B b -> Rl (add256 A B) (wadd_c a b false).
Proof.
  intros [OA <-] [OB <-]. rewrite (wadd_lbits A B false) by (apply OA || apply OB).
  destruct (lanes_ok_inv A OA) as (a0 & a1 & a2 & a3 & -> & A0 & A1 & A2 & A3).
  destruct (lanes_ok_inv B OB) as (b0 & b1 & b2 & b3 & -> & B0 & B1 & B2 & B3).
  rewrite add256_ripple by assumption. split; [|reflexivity].
  split; [reflexivity|]. cbn [ripple_lanes]. repeat constructor; apply N.mod_lt; discriminate.
Qed.

Lemma wshl_app : forall a b c, wshl_in (a ++ b) c = wshl_in a c ++ wshl_in b (last a c).
Proof.
  induction a as [|x a IH]; intros b c; [reflexivity|]. cbn [app wshl_in]. f_equal. rewrite IH. f_equal.
  rewrite last_cons. reflexivity.
Qed.

Lemma wshl_nbits k : forall x c, wshl_in (nbits k x) c = nbits k (2 * x + b2n c).
Proof.
  induction k as [|k IH]; intros x c; [reflexivity|]. cbn [nbits wshl_in]. rewrite IH, <- N.div2_odd.
  change (b2n c) with (N.b2n c). rewrite N.div2_div, (N.add_comm (2 * x)), N.add_b2n_double_div2.
  rewrite <- N.bit0_odd, N.add_b2n_double_bit0. reflexivity.
Qed.

Fixpoint shl1_lanes (d : lanes) (cin : N) : lanes :=
  match d with
  | x :: d' => N.lor ((N.shiftl x 1) mod w64) cin :: shl1_lanes d' (N.shiftr x 63)
  | [] => []
  end.

Lemma shl256_one x0 x1 x2 x3 : shl256 [x0; x1; x2; x3] 1 = shl1_lanes [x0; x1; x2; x3] 0.
Proof. unfold shl256. cbn [map lmap2 combine fst snd shl1_lanes]. change (64 - 1) with 63. rewrite !N.lor_0_r. reflexivity. Qed.

Lemma shiftr_63 x : x < w64 -> N.shiftr x 63 = b2n (N.testbit x 63).
Proof.
  intros H. change (b2n (N.testbit x 63)) with (N.b2n (N.testbit x 63)). rewrite N.testbit_spec', N.shiftr_div_pow2.
  symmetry. apply N.mod_small. apply N.div_lt_upper_bound; [discriminate|exact H].
Qed.

Lemma shl1_lane_bits x cin : nbits 64 (N.lor (N.shiftl x 1 mod w64) (b2n cin)) = nbits 64 (2 * x + b2n cin).
Proof.
  apply nbits_ext. intros i Hi. change w64 with (2 ^ 64). rewrite N.lor_spec, N.mod_pow2_bits_low by lia.
  change (b2n cin) with (N.b2n cin). destruct i as [|i].
  - rewrite N.shiftl_spec_low, N.testbit_0_r, N.b2n_bit0 by reflexivity. reflexivity.
  - rewrite Nat2N.inj_succ, N.testbit_succ_r, N.shiftl_spec_high', <- N.add_1_r, N.add_sub by lia.
    destruct cin; [change (N.b2n true) with (2 ^ 0); rewrite N.pow2_bits_false by lia|rewrite N.bits_0]; apply orb_false_r.
Qed.

Lemma lbits_shl1 : forall d cin, Forall (fun x => x < w64) d ->
  lbits (shl1_lanes d (b2n cin)) = wshl_in (lbits d) cin.
Proof.
  induction d as [|x d IH]; intros cin H; [reflexivity|]. inversion H as [|? ? Hx H']; subst.
  unfold lbits in *. cbn [shl1_lanes map concat]. rewrite wshl_app, wshl_nbits, shl1_lane_bits. f_equal.
  replace (last (nbits 64 x) cin) with (N.testbit x 63) by (rewrite last_nth, nbits_length, nth_nbits by lia; reflexivity).
  rewrite (shiftr_63 x Hx). apply IH, H'.
Qed.

Lemma Rl_shl1 A a : Rl A a -> Rl (shl256 A 1) (wshl_in a false).
Proof.
  intros [OA <-]. destruct (lanes_ok_inv A OA) as (a0 & a1 & a2 & a3 & -> & A0 & A1 & A2 & A3).
  rewrite shl256_one. split; [|apply (lbits_shl1 _ false), OA].
  split; [reflexivity|]. cbn [shl1_lanes].
  repeat constructor; apply lor_lt; try (apply N.mod_lt; discriminate); try reflexivity;
    rewrite shiftr_63 by assumption; destruct (N.testbit _ 63); reflexivity.
Qed.

Lemma land_pow2_zero x r : (N.land x (2 ^ r) =? 0) = negb (N.testbit x r).
Proof.
  destruct (N.testbit x r) eqn:E; cbn [negb].
  - apply N.eqb_neq. intro H. assert (T : N.testbit (N.land x (2 ^ r)) r = true) by (rewrite N.land_spec, E, N.pow2_bits_true; reflexivity).
    rewrite H, N.bits_0 in T. discriminate.
  - apply N.eqb_eq, land_pow2_clear, E.
Qed.

(* the MASK of bpm_256 for a pattern of m symbols: only bit m-1 is set *)
Definition mask_of (m : nat) : lanes :=
  let mask0 : lanes := [1; 0; 0; 0] in
  let mask1 := Nat.iter ((m - 1) / 64) (fun x => shl256 x 64) mask0 in
  if ((m - 1) mod 64 =? 0)%nat then mask1 else shl256 mask1 (N.of_nat ((m - 1) mod 64)).
Definition lane_at (q : nat) (x : N) : lanes := map (fun k => if (k =? q)%nat then x else 0) (seq 0 4).
Definition single_bit (i : nat) : lanes := lane_at (i / 64) (2 ^ N.of_nat (i mod 64)).

Lemma shl256_lane_at q r : (q < 4)%nat -> (0 < r < 64)%nat ->
  shl256 (lane_at q 1) (N.of_nat r) = lane_at q (2 ^ N.of_nat r).
Proof.
  intros Hq Hr.
  assert (L : N.shiftl 1 (N.of_nat r) mod w64 = 2 ^ N.of_nat r).
  { rewrite N.shiftl_1_l. apply N.mod_small. change w64 with (2 ^ 64). apply N.pow_lt_mono_r; lia. }
  assert (R : N.shiftr 1 (64 - N.of_nat r) = 0).
  { apply N.shiftr_eq_0. change (N.log2 1) with 0. lia. }
  destruct q as [|[|[|[|q]]]]; try lia; unfold shl256, lane_at; cbn [seq map Nat.eqb lmap2 combine fst snd];
    rewrite L, ?R, !N.shiftl_0_l, ?N.shiftr_0_l, ?N.lor_0_r; reflexivity.
Qed.

Lemma mask_is_single_bit m : (1 <= m <= 256)%nat -> mask_of m = single_bit (m - 1).
Proof.
  intros H. unfold mask_of, single_bit.
  assert (Q : ((m - 1) / 64 < 4)%nat) by (apply Nat.div_lt_upper_bound; lia).
  pose proof (Nat.mod_upper_bound (m - 1) 64 ltac:(lia)) as R.
  assert (I : Nat.iter ((m - 1) / 64) (fun x => shl256 x 64) [1; 0; 0; 0] = lane_at ((m - 1) / 64) 1).
  { destruct ((m - 1) / 64)%nat as [|[|[|[|q]]]]; try lia; reflexivity. }
  cbv zeta. rewrite I. destruct (Nat.eqb_spec ((m - 1) mod 64) 0) as [->|N0]; [reflexivity|].
  apply shl256_lane_at; lia.
Qed.

Lemma testz_bit A a i : Rl A a -> (i < 256)%nat -> ((if l_testz A (single_bit i) then 0 else 1) = b2z (wbit a i))%Z.
Proof.
  intros [OA <-] H. destruct (lanes_ok_inv A OA) as (x0 & x1 & x2 & x3 & -> & _).
  rewrite wbit_lbits by (cbn [length]; lia).
  unfold l_testz, single_bit, lane_at. cbn [seq map combine forallb fst snd].
  assert (K : (i / 64 < 4)%nat) by (apply Nat.div_lt_upper_bound; lia).
  destruct (i / 64)%nat as [|[|[|[|k]]]]; try lia; cbn [Nat.eqb nth];
    rewrite ?N.land_0_r, ?N.eqb_refl, ?andb_true_r, ?andb_true_l; cbn [andb]; rewrite land_pow2_zero;
    destruct (N.testbit _ _); reflexivity.
Qed.

Definition ematch (c : Z) (P : list Z) (j : nat) : bool := match nth_error P j with Some x => (x =? c)%Z | None => false end.

(* after the first i pattern symbols: lane k holds exactly the matches at positions 64k .. 64k+63 below i *)
Definition lob_inv (c : Z) (P : list Z) (i : nat) (acc : lanes) : Prop :=
  length acc = 4%nat /\
  forall k, (k < 4)%nat -> nth k acc 0 < w64 /\
    forall r, (r < 64)%nat -> N.testbit (nth k acc 0) (N.of_nat r) = (64 * k + r <? i)%nat && ematch c P (64 * k + r).

Lemma nth_update_lanes acc q d k : length acc = 4%nat -> (k < 4)%nat ->
  nth k (map (fun li : nat * N => if (fst li =? q)%nat then snd li + d else snd li) (combine (seq 0 4) acc)) 0 =
  if (k =? q)%nat then nth k acc 0 + d else nth k acc 0.
Proof.
  intros L K. destruct acc as [|a0 [|a1 [|a2 [|a3 [|]]]]]; try discriminate.
  destruct k as [|[|[|[|k]]]]; try lia; reflexivity.
Qed.

Lemma lob_inv_step c P i x acc : nth_error P i = Some x -> (i < 256)%nat -> lob_inv c P i acc ->
  lob_inv c P (S i)
    (if (x =? c)%Z then map (fun li => if (fst li =? i / 64)%nat then snd li + 2 ^ N.of_nat (i mod 64) else snd li) (combine (seq 0 4) acc)
     else acc).
Proof.
  intros Hx Hi [L J].
  pose proof (Nat.div_mod i 64 ltac:(lia)) as DM. pose proof (Nat.mod_upper_bound i 64 ltac:(lia)) as MB.
  set (q := (i / 64)%nat) in *. set (r := (i mod 64)%nat) in *.
  (* position i = (lane q, bit r) is the only one whose flag changes, and it becomes [x = c] *)
  assert (E : forall j, (j <? S i)%nat && ematch c P j = ((j <? i)%nat && ematch c P j) || ((j =? i)%nat && (x =? c)%Z)).
  { intro j. destruct (Nat.eqb_spec j i) as [->|Nj].
    - unfold ematch. rewrite Hx, Nat.ltb_irrefl, (proj2 (Nat.ltb_lt i (S i))) by lia. reflexivity.
    - rewrite orb_false_r. f_equal. destruct (Nat.ltb_spec j i), (Nat.ltb_spec j (S i)); try reflexivity; lia. }
  destruct (x =? c)%Z.
  - split; [rewrite map_length, combine_length, seq_length, L; reflexivity|].
    intros k K. rewrite nth_update_lanes by assumption. destruct (J k K) as [B T].
    destruct (Nat.eqb_spec k q) as [->|Nk].
    + rewrite add_pow2_lor by (rewrite (T r MB), <- DM, Nat.ltb_irrefl; reflexivity). split.
      * apply lor_lt; [exact B|]. change w64 with (2 ^ 64). apply N.pow_lt_mono_r; lia.
      * intros r' R'. rewrite N.lor_spec, N.pow2_bits_eqb, (T r' R'), E, andb_true_r. f_equal.
        destruct (N.eqb_spec (N.of_nat r) (N.of_nat r')), (Nat.eqb_spec (64 * q + r') i); try reflexivity; lia.
    + split; [exact B|]. intros r' R'. rewrite (T r' R'), E.
      destruct (Nat.eqb_spec (64 * k + r') i); [lia|symmetry; apply orb_false_r].
  - split; [exact L|]. intros k K. destruct (J k K) as [B T]. split; [exact B|].
    intros r' R'. rewrite (T r' R'), E, andb_false_r, orb_false_r. reflexivity.
Qed.

Lemma lob_run c P : forall p pre acc, P = pre ++ p -> (length P <= 256)%nat -> lob_inv c P (length pre) acc ->
  lob_inv c P (length P) (lanes_of_bits c p (length pre) acc).
Proof.
  induction p as [|x p IH]; intros pre acc E H J.
  - rewrite app_nil_r in E. subst pre. exact J.
  - cbn [lanes_of_bits]. specialize (IH (pre ++ [x])). rewrite app_length, Nat.add_1_r in IH.
    apply IH; [rewrite <- app_assoc; exact E|exact H|].
    apply lob_inv_step; [|subst P; rewrite app_length in H; cbn [length] in H; lia|exact J].
    subst P. rewrite nth_error_app2, Nat.sub_diag by lia. reflexivity.
Qed.

Lemma lob_final c P : (length P <= 256)%nat -> lob_inv c P (length P) (lanes_of_bits c P 0 [0; 0; 0; 0]).
Proof.
  intros H. apply (lob_run c P P [] _ eq_refl H). split; [reflexivity|]. intros k K. split.
  - destruct k as [|[|[|[|k]]]]; try lia; reflexivity.
  - intros r R. destruct k as [|[|[|[|k]]]]; try lia; cbn [nth]; rewrite N.bits_0; reflexivity.
Qed.

Lemma Rl_eqmask c P : (length P <= 256)%nat -> Rl (lanes_of_bits c P 0 [0; 0; 0; 0]) (eq_word_w 256 c P).
Proof.
  intros H. destruct (lob_final c P H) as [L J]. split; [split; [exact L|]|].
  - apply Forall_forall. intros x Hx. destruct (In_nth _ _ 0 Hx) as (k & K & <-). apply J. lia.
  - rewrite (lbits_ext _ (ematch c P)), L; [reflexivity|]. intros k r K R. rewrite L in K. destruct (J k K) as [_ T]. rewrite (T r R).
    destruct (Nat.ltb_spec (64 * k + r) (length P)) as [Lt|Ge]; [reflexivity|].
    unfold ematch. rewrite (proj2 (nth_error_None P _) Ge). reflexivity.
Qed.

Local Open Scope Z_scope.

Definition step256 (p : list Z) (mask : lanes) (st : lanes * lanes * Z * Z) (c : Z) : lanes * lanes * Z * Z :=
  let '(VP, VN, diff, k) := st in
  let X := l_or (lanes_of_bits c p 0 [0; 0; 0; 0]%N) VN in
  let D0 := l_or (l_xor (add256 VP (l_and X VP)) VP) X in
  let HN := l_and VP D0 in
  let HP := l_or VN (l_not (l_or VP D0)) in
  let X1 := shl256 HP 1 in
  let VN' := l_and X1 D0 in
  let VP' := l_or (shl256 HN 1) (l_not (l_or X1 D0)) in
  let diff' := (diff + (if l_testz HP mask then 0 else 1) - (if l_testz HN mask then 0 else 1))%Z in
  (VP', VN', diff', if (diff' <? k)%Z then diff' else k).

Lemma bpm256_unfold t p0 :
  bpm256 t p0 =
  let p := firstn 255 p0 in let m := length p in
  let '(_, _, _, k) := fold_left (step256 p (mask_of m)) t ([ones64; ones64; ones64; ones64], [0; 0; 0; 0]%N, Z.of_nat m, Z.of_nat m) in k.
Proof. reflexivity. Qed.

Definition Rst (S : lanes * lanes * Z * Z) (s : word * word * Z * Z) : Prop :=
  let '(VP, VN, D, K) := S in let '(vp, vn, d, k) := s in Rl VP vp /\ Rl VN vn /\ D = d /\ K = k.

Lemma step_sim p : (1 <= length p <= 255)%nat -> forall S s c, Rst S s ->
  Rst (step256 p (mask_of (length p)) S c) (bpm_step_w 256 p (length p) s c).
Proof.
  intros Hm [[[VP VN] D] K] [[[vp vn] d] k] c (RP & RN & <- & <-). unfold step256, bpm_step_w.
  rewrite mask_is_single_bit by lia.
  pose proof (Rl_or _ _ _ _ (Rl_eqmask c p ltac:(lia)) RN) as RX.
  pose proof (Rl_or _ _ _ _ (Rl_xor _ _ _ _ (Rl_add _ _ _ _ RP (Rl_and _ _ _ _ RX RP)) RP) RX) as RD.
  pose proof (Rl_and _ _ _ _ RP RD) as RHN.
  pose proof (Rl_or _ _ _ _ RN (Rl_not _ _ (Rl_or _ _ _ _ RP RD))) as RHP.
  pose proof (Rl_shl1 _ _ RHP) as RX1.
  rewrite (testz_bit _ _ (length p - 1) RHP), (testz_bit _ _ (length p - 1) RHN) by lia.
  split; [|split; [|split; reflexivity]].
  - apply (Rl_or _ _ _ _ (Rl_shl1 _ _ RHN) (Rl_not _ _ (Rl_or _ _ _ _ RX1 RD))).
  - apply (Rl_and _ _ _ _ RX1 RD).
Qed.

Theorem bpm256_is_bpmw : forall t p, (1 <= length p)%nat -> bpm256 t p = bpmw_bits 256 (repeat true 256) t (firstn 255 p).
Proof.
  intros t p0 H0. rewrite bpm256_unfold. cbv zeta. unfold bpmw_bits.
  assert (Hm : (1 <= length (firstn 255 p0) <= 255)%nat) by (rewrite firstn_length; lia).
  set (p := firstn 255 p0) in *.
  pose proof (fold_left_rel Rst _ _ (step_sim p Hm) t
    ([ones64; ones64; ones64; ones64], [0; 0; 0; 0]%N, Z.of_nat (length p), Z.of_nat (length p))
    (repeat true 256, repeat false 256, Z.of_nat (length p), Z.of_nat (length p))) as G.
  destruct (fold_left (step256 _ _) t _) as [[[? ?] ?] k1].
  destruct (fold_left (bpm_step_w _ _ _) t _) as [[[? ?] ?] k2]. apply G.
  split; [|split; [|split; reflexivity]]; (split; [split; [reflexivity|repeat constructor; reflexivity]|reflexivity]).
Qed.
