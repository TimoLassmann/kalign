(* The run of Api.v (kalign_run_model): its stages named (run_tail), and C14: respelling the residues within the
   classes of the two alphabets changes no gap. *)
From KV Require Import Base Params Sort SortProofs Weave Api.
Local Open Scope Z_scope.

Lemma Forall2_map_eq {A B C} (R : A -> B -> Prop) (f : A -> C) (g : B -> C) :
  (forall x y, R x y -> f x = g y) -> forall l l', Forall2 R l l' -> map f l = map g l'.
Proof. intros H l l'. induction 1; simpl; f_equal; auto. Qed.

Lemma Forall2_filter {A B} (R : A -> B -> Prop) (p : A -> bool) (q : B -> bool) :
  (forall x y, R x y -> p x = q y) -> forall l l', Forall2 R l l' -> Forall2 R (filter p l) (filter q l').
Proof.
  intros H l l'. induction 1 as [|x y l l' Hxy Hl IH]; simpl; [constructor|].
  rewrite <- (H x y Hxy). destruct (p x); [constructor|]; auto.
Qed.

Lemma Forall2_combine_same {A B C} (R : B -> C -> Prop) : forall (g : list A) l l',
  Forall2 R l l' -> Forall2 (fun a b => fst a = fst b /\ R (snd a) (snd b)) (combine g l) (combine g l').
Proof.
  induction g as [|a g IH]; intros l l' H; [constructor|].
  destruct H; simpl; constructor; auto.
Qed.

Lemma Forall2_map2 {A B C D} (R : A -> B -> Prop) (Q : C -> D -> Prop) (f : A -> C) (g : B -> D) :
  (forall x y, R x y -> Q (f x) (g y)) -> forall l l', Forall2 R l l' -> Forall2 Q (map f l) (map g l').
Proof. intros H l l'. induction 1; simpl; constructor; auto. Qed.

Definition strip (r : srec) : list Z * list Z := (r_name r, r_res r).

Definition mk_aligned (gr : list nat * srec) : srec :=
  mkS (r_rank (snd gr)) (r_name (snd gr)) (expand (fst gr) (r_res (snd gr))).

Definition run_tail (core : Z -> params -> list (list Z) -> list (list Z) -> list (list nat))
    (bt : Z) (p : params) (ta : list Z) (tamb : Z) (aa : list Z) (aamb : Z) (sorted : list srec) : list (list Z * list Z) :=
  map strip (sort_rank (map mk_aligned (combine
    (core bt p (map (fun r => convert ta tamb (r_res r)) sorted) (map (fun r => convert aa aamb (r_res r)) sorted)) sorted))).

Lemma kalign_run_model_eq core bt ty gpo gpe tgpe recs :
  kalign_run_model core bt ty gpo gpe tgpe recs =
  match essential_check (with_ranks 0 recs), alphabets bt, init bt ty gpo gpe tgpe with
  | Some kept, Some ((ta, tamb), (aa, aamb)), Some p => Some (run_tail core bt p ta tamb aa aamb (sort_len_name kept))
  | _, _, _ => None
  end.
Proof.
  unfold kalign_run_model. destruct (essential_check _); [|reflexivity].
  destruct (alphabets bt) as [[[ta tamb] [aa aamb]]|]; reflexivity.
Qed.

Lemma strip_with_ranks : forall recs i, map strip (with_ranks i recs) = recs.
Proof. induction recs as [|[n r] recs IH]; intros i; simpl; f_equal; auto. Qed.

Lemma strip_kept : forall recs i, map strip (filter nonempty_rec (with_ranks i recs)) =
  filter (fun p => match snd p with [] => false | _ => true end) recs.
Proof.
  induction recs as [|[nm res] recs IH]; intros i; [reflexivity|]. cbn [with_ranks filter snd].
  unfold nonempty_rec at 1. cbn [r_res]. destruct res; [apply IH|]. cbn [map]. f_equal. apply IH.
Qed.

Lemma essential_check_ranks recs : essential_check (with_ranks 0 recs) =
  if (length recs <=? 1)%nat || (length (filter (fun p => match snd p with [] => false | _ => true end) recs) <=? 1)%nat
  then None else Some (filter nonempty_rec (with_ranks 0 recs)).
Proof.
  unfold essential_check.
  rewrite <- (strip_kept recs 0), map_length, <- (map_length strip (with_ranks 0 recs)), strip_with_ranks.
  destruct (length recs <=? 1)%nat; reflexivity.
Qed.

Lemma cmp_rank_resp x x' y y' : r_rank x = r_rank x' -> r_rank y = r_rank y' -> cmp_rank x y = cmp_rank x' y'.
Proof. intros Hx Hy. unfold cmp_rank. rewrite Hx, Hy. reflexivity. Qed.

Section Respell.
Variable core : Z -> params -> list (list Z) -> list (list Z) -> list (list nat).
Variable bt : Z.
Variables ta aa : list Z.
Variables tamb aamb : Z.
Hypothesis Halpha : alphabets bt = Some ((ta, tamb), (aa, aamb)).

(* two bytes that the alignment cannot tell apart: same code in both alphabets, and neither or
   both are the gap character *)
Definition equiv_byte (c c' : Z) : Prop :=
  code_of ta tamb c = code_of ta tamb c' /\ code_of aa aamb c = code_of aa aamb c' /\
  (c =? dash) = (c' =? dash).

Definition respelled (r r' : list Z * list Z) : Prop :=
  fst r = fst r' /\ Forall2 equiv_byte (snd r) (snd r').

Definition rec_rel (r r' : srec) : Prop :=
  r_rank r = r_rank r' /\ r_name r = r_name r' /\ Forall2 equiv_byte (r_res r) (r_res r').

Lemma with_ranks_rel : forall recs recs' i, Forall2 respelled recs recs' ->
  Forall2 rec_rel (with_ranks i recs) (with_ranks i recs').
Proof.
  intros recs recs' i H. revert i. induction H as [|[n r] [n' r'] l l' [Hn Hr] Hl IH]; intros i; simpl; constructor; auto.
  simpl in *. repeat split; auto.
Qed.

Lemma rec_rel_len r r' : rec_rel r r' -> rlen r = rlen r'.
Proof. intros (_ & _ & H). unfold rlen. f_equal. eapply Forall2_len; eauto. Qed.

Lemma rec_rel_nonempty r r' : rec_rel r r' -> nonempty_rec r = nonempty_rec r'.
Proof. intros (_ & _ & H). unfold nonempty_rec. destruct H; reflexivity. Qed.

Lemma rec_rel_cmp x x' y y' : rec_rel x x' -> rec_rel y y' -> cmp_len_name x y = cmp_len_name x' y'.
Proof.
  intros Hx Hy. unfold cmp_len_name.
  rewrite (rec_rel_len _ _ Hx), (rec_rel_len _ _ Hy).
  destruct Hx as (_ & -> & _). destruct Hy as (_ & -> & _). reflexivity.
Qed.

Lemma essential_rel l l' : Forall2 rec_rel l l' ->
  match essential_check l, essential_check l' with
  | Some k, Some k' => Forall2 rec_rel k k'
  | None, None => True
  | _, _ => False
  end.
Proof.
  intro H. unfold essential_check. rewrite <- (Forall2_len _ l l' H).
  destruct (length l <=? 1)%nat; auto.
  pose proof (Forall2_filter rec_rel nonempty_rec nonempty_rec rec_rel_nonempty l l' H) as Hf.
  rewrite <- (Forall2_len _ _ _ Hf). destruct (length (filter nonempty_rec l) <=? 1)%nat; auto.
Qed.

Definition same_shape (row row' : list Z) : Prop :=
  Forall2 (fun c c' => (c =? dash) = (c' =? dash)) row row'.

Lemma expand_shape : forall res res', Forall2 equiv_byte res res' -> forall g,
  same_shape (expand g res) (expand g res') /\
  Forall2 (fun c c' => c = c' \/ equiv_byte c c') (expand g res) (expand g res').
Proof.
  assert (forall k, Forall2 (fun c c' => (c =? dash) = (c' =? dash)) (repeat dash k) (repeat dash k)) as Hrep
    by (induction k; simpl; constructor; auto).
  assert (forall k, Forall2 (fun c c' => c = c' \/ equiv_byte c c') (repeat dash k) (repeat dash k)) as Hrep2
    by (induction k; simpl; constructor; auto).
  induction 1 as [|c c' res res' Hc Hres IH]; intros g.
  - destruct g as [|gl g]; cbn [expand]; unfold same_shape; split; try apply Hrep; try apply Hrep2; constructor.
  - destruct g as [|g0 g]; cbn [expand].
    + split; constructor; auto.
      * apply Hc.
      * clear - Hres. induction Hres; constructor; auto. apply H.
      * clear - Hres. induction Hres; constructor; auto.
    + destruct (IH g) as [I1 I2]. split.
      * apply Forall2_app; [apply Hrep|]. constructor; [apply Hc|exact I1].
      * apply Forall2_app; [apply Hrep2|]. constructor; auto.
Qed.

Definition out_rel (o o' : list Z * list Z) : Prop := fst o = fst o' /\ same_shape (snd o) (snd o').

Lemma rec_rel_codes s s' : Forall2 rec_rel s s' ->
  map (fun r => convert ta tamb (r_res r)) s = map (fun r => convert ta tamb (r_res r)) s' /\
  map (fun r => convert aa aamb (r_res r)) s = map (fun r => convert aa aamb (r_res r)) s'.
Proof.
  intro H. split; apply (Forall2_map_eq rec_rel); auto; intros x y (_ & _ & Hr);
    apply (Forall2_map_eq equiv_byte); auto; intros c c' Hc; apply Hc.
Qed.

Theorem respell_invariance : forall ty gpo gpe tgpe recs recs',
  Forall2 respelled recs recs' ->
  match kalign_run_model core bt ty gpo gpe tgpe recs, kalign_run_model core bt ty gpo gpe tgpe recs' with
  | Some o, Some o' => Forall2 out_rel o o'
  | None, None => True
  | _, _ => False
  end.
Proof.
  (* the relation is carried through the stages: input check, canonical sort, codes (equal: the core sees the
     same input), linearised rows, rank sort *)
  intros ty gpo gpe tgpe recs recs' H. rewrite !kalign_run_model_eq, Halpha.
  pose proof (essential_rel _ _ (with_ranks_rel recs recs' 0 H)) as He.
  destruct (essential_check (with_ranks 0 recs)) as [k|], (essential_check (with_ranks 0 recs')) as [k'|]; try contradiction; auto.
  destruct (init bt ty gpo gpe tgpe) as [p|]; auto.
  pose proof (msort_Forall2 rec_rel cmp_len_name cmp_len_name rec_rel_cmp k k' He) as Hs.
  unfold run_tail, sort_len_name. destruct (rec_rel_codes _ _ Hs) as (-> & ->).
  set (arel := fun r r' : srec => r_rank r = r_rank r' /\ r_name r = r_name r' /\ same_shape (r_res r) (r_res r')).
  apply (Forall2_map2 arel); [intros x y (_ & Hn & Hsh); split; assumption|].
  apply (msort_Forall2 arel); [intros x x' y y' (Hx & _) (Hy & _); apply cmp_rank_resp; assumption|].
  apply (Forall2_map2 (fun a b : list nat * srec => fst a = fst b /\ rec_rel (snd a) (snd b))).
  - intros [g r] [g' r'] [Hg (Hrk & Hnm & Hres)]. simpl in *. subst g'.
    repeat split; auto. apply expand_shape. exact Hres.
  - apply Forall2_combine_same. exact Hs.
Qed.

End Respell.

Definition upper_lower_pairs : list (Z * Z) := map (fun i => (65 + Z.of_nat i, 97 + Z.of_nat i)) (seq 0 26).

Definition codes_agree (bt c c' : Z) : bool :=
  match alphabets bt with
  | Some ((ta, tamb), (aa, aamb)) =>
    (code_of ta tamb c =? code_of ta tamb c') && (code_of aa aamb c =? code_of aa aamb c') &&
    Bool.eqb (c =? dash) (c' =? dash)
  | None => false
  end.

Lemma alphabet_case_b :
  forallb (fun bt => forallb (fun p => codes_agree bt (fst p) (snd p)) upper_lower_pairs)
          [ALN_BIOTYPE_DNA; ALN_BIOTYPE_PROTEIN] = true.
Proof. vm_compute. reflexivity. Qed.

Lemma alphabet_TU_b :
  codes_agree ALN_BIOTYPE_DNA 84 85 = true /\ codes_agree ALN_BIOTYPE_DNA 116 117 = true /\
  codes_agree ALN_BIOTYPE_DNA 84 117 = true /\ codes_agree ALN_BIOTYPE_DNA 116 85 = true.
Proof. vm_compute. repeat split; reflexivity. Qed.

Lemma codes_agree_equiv bt ta tamb aa aamb c c' :
  alphabets bt = Some ((ta, tamb), (aa, aamb)) -> codes_agree bt c c' = true ->
  equiv_byte ta aa tamb aamb c c'.
Proof.
  intros Ha H. unfold codes_agree in H. rewrite Ha in H.
  apply andb_true_iff in H as [H H3]. apply andb_true_iff in H as [H1 H2].
  apply Z.eqb_eq in H1, H2. apply Bool.eqb_prop in H3. repeat split; auto.
Qed.

(* every residue letter the readers accept gets a defined class in each alphabet (C05) *)
Lemma residue_codes_defined_b :
  forallb (fun c => if isalpha c then
     (0 <=? code_of alpha_defDNA (nthZ (-1) alpha_defDNA 78) c) && (code_of alpha_defDNA (nthZ (-1) alpha_defDNA 78) c <? 5) &&
     (0 <=? code_of alpha_redPROTEIN (nthZ (-1) alpha_redPROTEIN 88) c) && (code_of alpha_redPROTEIN (nthZ (-1) alpha_redPROTEIN 88) c <? 13) &&
     (0 <=? code_of alpha_ambPROTEIN (nthZ (-1) alpha_ambPROTEIN 88) c) && (code_of alpha_ambPROTEIN (nthZ (-1) alpha_ambPROTEIN 88) c <? 23)
     else true) (map (fun i => Z.of_nat i - 128) (seq 0 256)) = true.
Proof. vm_compute. reflexivity. Qed.
