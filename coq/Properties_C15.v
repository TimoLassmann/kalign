(* C15 - Written alignment files are self-consistent and correctly labelled.
   The proofs stand under the statements or are the lemma of FormatsProofs.v / FormatsProofs2.v named there.  Proved: FASTA wrapping and the line
   structure of the FASTA writer; for Clustal and MSF: every block lists every sequence in order under its
   name, the blocks are 60 columns wide except the last (1..60), and the chunks of a row concatenate to the row;
   the MSF header declares the alignment length, the per-row checksum over the whole row and the molecule type,
   and its decimal fields mean the numbers they print.  That the writer model is msa_io.c is the byte-exact
   correspondence checked on every run, together with independent parsers applied to the implementation's
   files (DESIGN C15). *)
From KV Require Import Base Params Cmp Formats FormatsProofs FormatsProofs2.
From Coq Require Import String.
From Coq Require Import List.
Import Coq.Init.Datatypes.
Import ListNotations.
Local Open Scope string_scope.
Local Open Scope list_scope.
Local Open Scope Z_scope.

(* FASTA: every record is its header line followed by lines of exactly 60 columns, except a last
   one of 1..60 columns; an empty row has no sequence line (FormatsProofs.fasta_chunks_nonempty_iff); the pieces
   concatenate to the row *)
Theorem C15_fasta_wrapped_at_60 : forall row pre last,
  chunk60 row = pre ++ [last] -> Forall (fun ch => length ch = 60%nat) pre /\ (1 <= length last <= 60)%nat.
Proof. intros row pre last. apply chunks_full; lia. Qed.
Print Assumptions C15_fasta_wrapped_at_60.

Theorem C15_fasta_pieces_are_the_row : forall row, concat (chunk60 row) = row.
Proof. exact chunk60_concat. Qed.
Print Assumptions C15_fasta_pieces_are_the_row.

Theorem C15_fasta_file_is_lines : forall rows, write_fasta rows = unlines (fasta_lines rows).
Proof. exact write_fasta_unlines. Qed.
Print Assumptions C15_fasta_file_is_lines.

(* Clustal and MSF body: one line per sequence per block, in input order, name first *)
Theorem C15_body_lists_every_sequence_in_every_block : forall alnlen rows,
  blocks alnlen rows =
  flat_map (fun b => map (fun nr => block_line (max_name_len rows) (fst nr) (chunk_of alnlen b (snd nr))) rows ++ [[nl]])
           (seq 0 ((alnlen + 59) / 60)).
Proof. reflexivity. Qed.
Print Assumptions C15_body_lists_every_sequence_in_every_block.

(* a block line is the name, at least five blanks, and the block's columns of that row *)
Theorem C15_block_line_shape : forall alnlen mx b nr, row_ok alnlen mx nr ->
  line_of mx alnlen b nr = fst nr ++ 32 :: (repeat space (mx + 4 - length (fst nr)) ++ chunk_of alnlen b (snd nr)).
Proof. exact line_shape. Qed.
Print Assumptions C15_block_line_shape.

(* blocks are at most 60 columns wide - exactly 60 except the last - and never empty *)
Theorem C15_blocks_at_most_60_columns : forall alnlen row b, length row = alnlen -> (b < (alnlen + 59) / 60)%nat ->
  (1 <= length (chunk_of alnlen b row) <= 60)%nat /\
  (length (chunk_of alnlen b row) = 60%nat \/ S b = ((alnlen + 59) / 60)%nat).
Proof.
  intros alnlen row b L Hb. unfold chunk_of. rewrite firstn_length, skipn_length, firstn_length, L.
  pose proof (nblocks_bound alnlen). lia.
Qed.
Print Assumptions C15_blocks_at_most_60_columns.

(* ... and together they are the row: every column is written exactly once, in order *)
Theorem C15_blocks_cover_the_row : forall alnlen row, length row = alnlen ->
  List.concat (map (fun b => chunk_of alnlen b row) (seq 0 ((alnlen + 59) / 60))) = row.
Proof. exact blocks_cover_row. Qed.
Print Assumptions C15_blocks_cover_the_row.

(* the MSF file: type line by molecule kind, "MSF: <alnlen>", "Check: <sum of row checksums mod 10000>", one
   Name line per row with "Len: <alnlen>" and "Check: <GCG checksum of the whole row>", "//", then the body *)
Theorem C15_msf_header_declares : forall basename date protein alnlen rows,
  exists body, write_msf basename date protein alnlen rows =
    unlines ([bytes_of_string (if protein then "!!AA_MULTIPLE_ALIGNMENT 1.0"%string else "!!NA_MULTIPLE_ALIGNMENT 1.0"%string); [];
              [space] ++ basename ++ bytes_of_string "  MSF: "%string ++ decimal (Z.of_nat alnlen) ++ bytes_of_string "  Type: "%string ++
                [if protein then 80 else 78] ++ bytes_of_string "  "%string ++ date ++ bytes_of_string "  Check: "%string ++
                decimal (gcg_mult alnlen rows) ++ bytes_of_string "  .."%string; []] ++
             map (fun nr => bytes_of_string " Name: "%string ++ firstn (max_name_len rows) (fst nr) ++
                            repeat space (max_name_len rows - length (firstn (max_name_len rows) (fst nr))) ++
                            bytes_of_string "  Len:  "%string ++ pad_left 5 (decimal (Z.of_nat alnlen)) ++
                            bytes_of_string "  Check: "%string ++ pad_left 4 (decimal (gcg_checksum (firstn alnlen (snd nr)))) ++
                            bytes_of_string "  Weight: 1.00"%string) rows ++
             [[]; bytes_of_string "//"%string; []] ++ body) /\ body = blocks alnlen rows.
Proof. intros. exists (blocks alnlen rows). split; [|reflexivity]. unfold write_msf. rewrite <- !app_assoc. reflexivity. Qed.
Print Assumptions C15_msf_header_declares.

(* a decimal field denotes the number printed *)
Theorem C15_decimal_fields_mean_their_numbers : forall n, 0 <= n < 10 ^ 40 -> undecimal (decimal n) = n.
Proof.
  intros n H. unfold decimal. destruct (Z.ltb_spec n 0); [lia|].
  destruct (digits_fuel_value 40 n [] H ltac:(lia)) as (d & E & V & _). rewrite E, app_nil_r. exact V.
Qed.
Print Assumptions C15_decimal_fields_mean_their_numbers.

(* the MSF header of a concrete alignment (instance, by evaluation): declared length = alignment
   length, per-row checksum over the whole row, nucleic-acid label *)
Example C15_msf_instance :
  let rows := [([115;49], [65;67;45;71;84;65;65]); ([115;50], [65;45;45;71;84;67;65])] in
  firstn 3 (read_lines (write_msf [111] [68] false 7 rows)) =
  [bytes_of_string "!!NA_MULTIPLE_ALIGNMENT 1.0"; [];
   bytes_of_string " o  MSF: 7  Type: N  D  Check: 3734  .."] /\
  gcg_checksum [65;67;45;71;84;65;65] + gcg_checksum [65;45;45;71;84;67;65] = 3734.
Proof. vm_compute. split; reflexivity. Qed.
