(* Labelled guide trees (Pipeline.label, tasks_of, sort_tasks): the labels of a tree, its subtrees, and that
   label_internal gives distinct labels.  Shared by the schedule proofs (TreeSchedule.v) and the clade theorems of C12. *)
From Coq Require Import ZArith List Lia.
From KV Require Import ListFacts Pipeline.
Import ListNotations.

Fixpoint ids (t : ltree) : list nat :=
  match t with LLeaf i => [i] | LNode c l r => c :: ids l ++ ids r end.
Inductive subtree (s : ltree) : ltree -> Prop :=
| sub_here : subtree s s
| sub_left c l r : subtree s l -> subtree s (LNode c l r)
| sub_right c l r : subtree s r -> subtree s (LNode c l r).

Lemma lid_in t : In (lid t) (ids t).
Proof. destruct t; cbn; auto. Qed.
Lemma subtree_incl s t : subtree s t -> incl (ids s) (ids t).
Proof.
  induction 1 as [|c l r _ IH|c l r _ IH]; [apply incl_refl| |]; intros i Hi; cbn [ids]; right; apply in_or_app; [left|right]; apply IH; exact Hi.
Qed.
Lemma tasks_in t : Forall (fun t3 => let '(a, b, c) := t3 in In a (ids t) /\ In b (ids t) /\ In c (ids t)) (tasks_of t).
Proof.
  induction t as [i|c l IHl r IHr]; cbn [tasks_of ids]; [constructor|].
  constructor.
  - split; [right; apply in_or_app; left; apply lid_in|]. split; [right; apply in_or_app; right; apply lid_in|left; reflexivity].
  - apply Forall_app. split; (eapply Forall_impl; [|eassumption]); intros [[a b] c'] (A & B & C); (split; [|split]); right; apply in_or_app; auto.
Qed.

(* label_internal numbers the internal nodes upwards from [next]: with distinct leaves below [next] all labels are distinct *)
Fixpoint leaves (t : utree) : list nat := match t with ULeaf i => [i] | UNode l r => leaves l ++ leaves r end.
Lemma label_spec : forall t next, 
  (next <= snd (label t next))%nat /\
  (forall i, In i (ids (fst (label t next))) -> In i (leaves t) \/ (next <= i < snd (label t next))%nat) /\
  (NoDup (leaves t) -> (forall i, In i (leaves t) -> (i < next)%nat) -> NoDup (ids (fst (label t next)))).
Proof.
  induction t as [i|l IHl r IHr]; intros next.
  - cbn [label fst snd ids leaves]. split; [lia|]. split; [intros j [->|[]]; left; left; reflexivity|]. intros _ _. constructor; [intros []|constructor].
  - cbn [label]. destruct (label l next) as [l' n1] eqn:El. destruct (label r n1) as [r' n2] eqn:Er. cbn [fst snd ids leaves].
    destruct (IHl next) as (A1 & A2 & A3). destruct (IHr n1) as (B1 & B2 & B3). rewrite El in A1, A2, A3. rewrite Er in B1, B2, B3. cbn [fst snd] in *.
    split; [lia|]. split.
    + intros i [<-|Hi]; [right; lia|]. apply in_app_or in Hi as [Hi|Hi].
      * destruct (A2 i Hi) as [Q|Q]; [left; apply in_or_app; left; exact Q|right; lia].
      * destruct (B2 i Hi) as [Q|Q]; [left; apply in_or_app; right; exact Q|right; lia].
    + intros Hnd Hlt. apply NoDup_app_iff in Hnd as (Hl & Hr & Hd). constructor.
      * intros Q. apply in_app_or in Q as [Q|Q].
        -- destruct (A2 _ Q) as [Q'|Q']; [specialize (Hlt n2 ltac:(apply in_or_app; left; exact Q')); lia|lia].
        -- destruct (B2 _ Q) as [Q'|Q']; [specialize (Hlt n2 ltac:(apply in_or_app; right; exact Q')); lia|lia].
      * apply NoDup_app_iff. split; [|split].
        -- apply A3; [exact Hl|intros i Hi; apply Hlt; apply in_or_app; left; exact Hi].
        -- apply B3; [exact Hr|intros i Hi; assert (i < next)%nat by (apply Hlt; apply in_or_app; right; exact Hi); lia].
        -- intros i Ha Hb. destruct (A2 i Ha) as [Qa|Qa]; destruct (B2 i Hb) as [Qb|Qb].
           ++ exact (Hd _ Qa Qb).
           ++ specialize (Hlt i ltac:(apply in_or_app; left; exact Qa)). lia.
           ++ specialize (Hlt i ltac:(apply in_or_app; right; exact Qb)). lia.
           ++ lia.
Qed.
Lemma label_nodup t n : NoDup (leaves t) -> (forall i, In i (leaves t) -> (i < n)%nat) -> NoDup (ids (fst (label t n))).
Proof. apply label_spec. Qed.

Definition marks (s : ltree) (i : nat) : bool := existsb (Nat.eqb i) (ids s).
Lemma marks_in s i : marks s i = true <-> In i (ids s).
Proof. unfold marks. rewrite existsb_exists. split; [intros (y & Hy & E); apply Nat.eqb_eq in E; subst; exact Hy|intros H; exists i; split; [exact H|apply Nat.eqb_refl]]. Qed.
Lemma marks_out s i : ~ In i (ids s) -> marks s i = false.
Proof. intros H. destruct (marks s i) eqn:E; [apply marks_in in E; contradiction|reflexivity]. Qed.

Lemma insert_task_Forall (P : nat * nat * nat -> Prop) t l : P t -> Forall P l -> Forall P (insert_task t l).
Proof.
  intros Ht Hl. induction Hl as [|y l Hy Hl IH]; cbn [insert_task]; [constructor; [exact Ht|constructor]|].
  destruct (snd t <=? snd y)%nat; constructor; auto.
Qed.
Lemma sort_tasks_Forall (P : nat * nat * nat -> Prop) l : Forall P l -> Forall P (sort_tasks l).
Proof. induction 1 as [|t l Ht Hl IH]; cbn [sort_tasks fold_right]; [constructor|]. apply insert_task_Forall; assumption. Qed.
