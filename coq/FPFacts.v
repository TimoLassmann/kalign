(* What the binary64 operations of FP.v compute where nothing overflows (exact result of magnitude at most 2^60):
   Flocq's Bmult_correct, Bplus_correct, Bdiv_correct, binary_normalize_correct and Bcompare_correct, read once.
   Any bound below 2^1024 would do; 2^60 is above everything the users compute (100 * 2^46, 64 * 2^40). *)
From Coq Require Import Reals Lia.
From Flocq Require Import Core IEEE754.BinarySingleNaN IEEE754.Binary IEEE754.Bits.
From KV Require Import FP.
Local Open Scope Z_scope.

Notation round64 := (round radix2 (SpecFloat.fexp 53 1024) (round_mode mode_NE)).

Lemma fmt_int prec emax z : 3 - emax - prec <= 0 -> Z.abs z < 2 ^ prec ->
  generic_format radix2 (SpecFloat.fexp prec emax) (IZR z).
Proof.
  intros He H. apply generic_format_FLT. apply FLT_spec with (f := Float radix2 z 0); [unfold F2R; simpl; ring|exact H|exact He].
Qed.

Lemma finite_not_nan prec emax (x : binary_float prec emax) : is_finite prec emax x = true -> is_nan prec emax x = false.
Proof. destruct x; [reflexivity|reflexivity|discriminate|reflexivity]. Qed.

Lemma bpow60 : bpow radix2 60 = 1152921504606846976%R.
Proof. change (bpow radix2 60) with (IZR (Z.pow_pos 2 60)). reflexivity. Qed.

(* a value of magnitude at most 2^60 rounds to one of magnitude at most 2^60 (itself representable): the side condition
   of every Flocq correctness lemma below holds *)
Lemma no_overflow x : (Rabs x <= bpow radix2 60)%R -> Rlt_bool (Rabs (round64 x)) (bpow radix2 1024) = true.
Proof.
  intros H. apply Rlt_bool_true. eapply Rle_lt_trans.
  - apply abs_round_le_generic; [apply FLT_exp_valid; reflexivity|apply valid_rnd_N| |exact H].
    apply generic_format_FLT_bpow; [reflexivity|unfold SpecFloat.emin; lia].
  - apply bpow_lt. lia.
Qed.

Lemma int_below_bpow60 z : Z.abs z < 2 ^ 53 -> (Rabs (IZR z) <= bpow radix2 60)%R.
Proof. intros H. rewrite <- abs_IZR, bpow60. apply IZR_le. assert (2 ^ 53 < 1152921504606846976) by reflexivity. lia. Qed.

Lemma f64_mul_correct x y : is_finite 53 1024 x = true -> is_finite 53 1024 y = true ->
  (Rabs (B2R 53 1024 x * B2R 53 1024 y) <= bpow radix2 60)%R ->
  B2R 53 1024 (f64_mul x y) = round64 (B2R 53 1024 x * B2R 53 1024 y) /\ is_finite 53 1024 (f64_mul x y) = true /\
  Bsign 53 1024 (f64_mul x y) = xorb (Bsign 53 1024 x) (Bsign 53 1024 y).
Proof.
  intros Fx Fy H. unfold f64_mul, b64_mult.
  match goal with |- context [Bmult ?p ?e ?h1 ?h2 ?nan ?m x y] => pose proof (Bmult_correct p e h1 h2 nan m x y) as M end.
  rewrite (no_overflow _ H), Fx, Fy in M. destruct M as (A & B & C). repeat split; [exact A|exact B|apply C, finite_not_nan, B].
Qed.

Lemma f64_div_correct x y : is_finite 53 1024 x = true -> B2R 53 1024 y <> 0%R ->
  (Rabs (B2R 53 1024 x / B2R 53 1024 y) <= bpow radix2 60)%R ->
  B2R 53 1024 (f64_div x y) = round64 (B2R 53 1024 x / B2R 53 1024 y) /\ is_finite 53 1024 (f64_div x y) = true /\
  Bsign 53 1024 (f64_div x y) = xorb (Bsign 53 1024 x) (Bsign 53 1024 y).
Proof.
  intros Fx Hy H. unfold f64_div, b64_div.
  match goal with |- context [Bdiv ?p ?e ?h1 ?h2 ?nan ?m x y] => pose proof (Bdiv_correct p e h1 h2 nan m x y Hy) as M end.
  rewrite (no_overflow _ H), Fx in M. destruct M as (A & B & C). repeat split; [exact A|exact B|apply C, finite_not_nan, B].
Qed.

Lemma f64_add_correct x y : is_finite 53 1024 x = true -> is_finite 53 1024 y = true ->
  (Rabs (B2R 53 1024 x + B2R 53 1024 y) <= bpow radix2 60)%R ->
  B2R 53 1024 (f64_add x y) = round64 (B2R 53 1024 x + B2R 53 1024 y) /\ is_finite 53 1024 (f64_add x y) = true.
Proof.
  intros Fx Fy H. unfold f64_add, b64_plus.
  match goal with |- context [Bplus ?p ?e ?h1 ?h2 ?nan ?m x y] => pose proof (Bplus_correct p e h1 h2 nan m x y Fx Fy) as M end.
  rewrite (no_overflow _ H) in M. destruct M as (A & B & _). split; assumption.
Qed.

(* (double) n for 0 <= n < 2^53: exact, and +0 for n = 0 *)
Lemma of_Z_exact n : 0 <= n < 2 ^ 53 ->
  B2R 53 1024 (f64_of_Z n) = IZR n /\ is_finite 53 1024 (f64_of_Z n) = true /\ Bsign 53 1024 (f64_of_Z n) = false.
Proof.
  intros Hn. unfold f64_of_Z.
  pose proof (binary_normalize_correct 53 1024 (eq_refl _) (eq_refl _) mode_NE n 0 false) as H.
  assert (E : F2R (Float radix2 n 0) = IZR n) by (unfold F2R; simpl; ring).
  rewrite E, no_overflow in H by (apply int_below_bpow60; lia).
  rewrite round_generic in H; [|apply valid_rnd_N|apply fmt_int; lia].
  destruct H as (A & B & C). split; [exact A|split; [exact B|]]. rewrite C.
  destruct (Rcompare_spec (IZR n) 0) as [L| |]; [apply lt_IZR in L; lia|reflexivity..].
Qed.

Lemma compare64 (x y : f64) : is_finite 53 1024 x = true -> is_finite 53 1024 y = true ->
  b64_compare x y = Some (Rcompare (B2R 53 1024 x) (B2R 53 1024 y)).
Proof. intros Fx Fy. unfold b64_compare. apply Bcompare_correct; assumption. Qed.
