(* The three kernel instances meet the controller's premise, for every arithmetic. *)
From Coq Require Import ZArith List Lia.
From KV Require Import Kernels Pipeline KernelProofs.
Import ListNotations.
Local Open Scope Z_scope.

Lemma slice_length {X} (l : list X) a b : 0 <= a <= b -> b <= Z.of_nat (length l) -> length (slice l a b) = Z.to_nat (b - a).
Proof. intros H1 H2. unfold slice. rewrite firstn_length, skipn_length. lia. Qed.

Section Inst.
Variable A : alg.
Variable P : nparams A.

Lemma pass_meet_ok {R C} (K : costs A R C) M sz el startb endb fi li fi' li' f0 b0 rows rows' (cols cols' : list C) :
  startb < endb -> Z.of_nat (length cols) = endb - startb -> length cols' = length cols ->
  okbest A startb endb (meetup A M sz el startb endb (pass A R C K fi li f0 rows cols) (rev (pass A R C K fi' li' b0 rows' cols'))).
Proof. intros H L L'. apply meetup_range; [exact H|rewrite pass_length; lia|rewrite rev_length, !pass_length, L'; reflexivity]. Qed.

Theorem ss_meet_ok seq1 seq2 : forall starta mid enda startb endb f0 b0,
  0 <= startb -> startb < endb -> endb <= Z.of_nat (length seq2) ->
  okbest A startb endb (k_meetup A (ss_kernel A P seq1 seq2) mid startb endb
     (k_forward A (ss_kernel A P seq1 seq2) starta mid startb endb f0)
     (k_backward A (ss_kernel A P seq1 seq2) mid enda startb endb b0)).
Proof. intros starta mid enda startb endb f0 b0 H0 H1 H2. apply pass_meet_ok; [exact H1|rewrite slice_length; lia|apply rev_length]. Qed.

Theorem sp_meet_ok prof1 seq2 sip : forall starta mid enda startb endb f0 b0,
  0 <= startb -> startb < endb -> endb <= Z.of_nat (length seq2) ->
  okbest A startb endb (k_meetup A (sp_kernel A P prof1 seq2 sip) mid startb endb
     (k_forward A (sp_kernel A P prof1 seq2 sip) starta mid startb endb f0)
     (k_backward A (sp_kernel A P prof1 seq2 sip) mid enda startb endb b0)).
Proof. intros starta mid enda startb endb f0 b0 H0 H1 H2. apply pass_meet_ok; [exact H1|rewrite slice_length; lia|apply rev_length]. Qed.

Theorem pp_meet_ok prof1 prof2 : (2 <= length prof2)%nat -> forall starta mid enda startb endb f0 b0,
  0 <= startb -> startb < endb -> endb <= Z.of_nat (length prof2) - 2 ->
  okbest A startb endb (k_meetup A (pp_kernel A prof1 prof2) mid startb endb
     (k_forward A (pp_kernel A prof1 prof2) starta mid startb endb f0)
     (k_backward A (pp_kernel A prof1 prof2) mid enda startb endb b0)).
Proof.
  intros L2 starta mid enda startb endb f0 b0 H0 H1 H2.
  apply pass_meet_ok; [exact H1|unfold cols_fwd, RowP|unfold cols_bwd, cols_fwd, RowP; rewrite rev_length]; rewrite !combine_length, !slice_length by lia; lia.
Qed.
End Inst.
