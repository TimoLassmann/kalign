(* Executable predicates over observed data (raw paths, task lists, rows): the statements of the
   weave-layer theorems as boolean functions.  Used (extracted) as the oracle of the
   implementation-side witness search and to monitor theorem premises on observed values. *)
From KV Require Import Base Weave WeaveProofs.
Local Open Scope Z_scope.

(* well-formed raw path (derived from aln_setup.c:140-190, see DESIGN C01);
   cur = number of side-2 columns consumed so far; b = previous entry *)
Fixpoint wf_rest (lb cur b : Z) (ps : list Z) : bool :=
  match ps with
  | [] => if b =? -1 then cur =? lb else b <=? lb
  | p :: ps' =>
    if p =? -1 then wf_rest lb cur p ps'
    else if b =? -1 then (p =? cur + 1) && wf_rest lb p p ps'
    else (b <? p) && wf_rest lb p p ps'
  end.

Definition kpath_wfb (lb : Z) (path : list Z) : bool :=
  match path with
  | [] => false
  | p1 :: ps =>
    existsb (fun p => negb (p =? -1)) path &&
    (if p1 =? -1 then wf_rest lb 0 p1 ps else (1 <=? p1) && wf_rest lb p1 p1 ps)
  end.

Definition ops_fitb (ks : list opk) (la lb : nat) : bool :=
  Nat.eqb (cnt is_M ks + cnt is_GB ks) la && Nat.eqb (cnt is_M ks + cnt is_GA ks) lb &&
  Nat.eqb (cnt is_NONE ks) 0.

Lemma ops_fitb_ok ks la lb : ops_fitb ks la lb = true <-> ops_fit ks la lb.
Proof. unfold ops_fitb, ops_fit. rewrite !andb_true_iff, !Nat.eqb_eq. tauto. Qed.

(* alignment integrity of a result (C01) *)
Definition nonempty (s : list Z) : bool := match s with [] => false | _ => true end.

Fixpoint all_same_length (rows : list (list Z)) : bool :=
  match rows with
  | [] => true
  | r :: rest => forallb (fun r' => Nat.eqb (length r') (length r)) rest
  end.

Definition no_allgap_b (rows : list (list Z)) : bool :=
  match rows with
  | [] => true
  | r :: rest => negb (existsb (fun b => b) (block_mask r rest))
  end.

Fixpoint forall2b {A B} (f : A -> B -> bool) (a : list A) (b : list B) : bool :=
  match a, b with
  | [], [] => true
  | x :: a', y :: b' => f x y && forall2b f a' b'
  | _, _ => false
  end.

Definition integrity_b (inputs rows : list (list Z)) : bool :=
  forall2b (fun inp row => list_eqb Z.eqb (degap row) inp) (filter nonempty inputs) rows &&
  all_same_length rows && no_allgap_b rows.

(* finished sub-alignments stay intact (C10) *)
Definition rows_eqb (a b : list (list Z)) : bool := list_eqb (list_eqb Z.eqb) a b.

(* snapshot: member indices and their rows when the node completed; final: all final rows *)
Definition subalignment_b (final : list (list Z)) (snap : list nat * list (list Z)) : bool :=
  rows_eqb (strip_allgap (map (fun i => nth i final []) (fst snap))) (snd snap).
