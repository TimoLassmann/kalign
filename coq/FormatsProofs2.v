(* C06 / C15: what the Clustal and MSF writers print - the shape of the block lines and of the MSF header, that
   these lines survive line reading and are sniffed as their format, what read_msf's header phase makes of the MSF
   header - and the block structure of the body. *)
From KV Require Import Base Params Cmp Formats FormatsProofs.
From Coq Require Import String.
Import Coq.Init.Datatypes.
Import ListNotations.
Local Open Scope list_scope.
Local Open Scope Z_scope.

Lemma space_facts_b : forallb (fun c => iscntrl c || (c =? 32)) (trues ctype_isspace (-128)) = true.
Proof. vm_compute. reflexivity. Qed.
Lemma isspace_cases c : isspace c = true -> iscntrl c = true \/ c = 32.
Proof.
  intros H. pose proof (ctype_forall ctype_isspace _ space_facts_b c H) as T.
  rewrite orb_true_iff, Z.eqb_eq in T. exact T.
Qed.

Definition nospace (n : list Z) : Prop := Forall (fun c => isspace c = false) n.
Lemma name_ok_nospace n : name_ok n -> nospace n.
Proof.
  intros H. eapply Forall_impl; [|exact (name_ok_plain n H)]. intros c (C & S & _).
  destruct (isspace c) eqn:E; [|reflexivity]. destruct (isspace_cases c E) as [K| ->]; congruence.
Qed.

Lemma update_nth_app {A} (f : A -> A) : forall pre x suf, update_nth (length pre) f (pre ++ x :: suf) = pre ++ f x :: suf.
Proof. induction pre as [|p pre IH]; intros x suf; cbn [length app update_nth]; [reflexivity|]. rewrite IH. reflexivity. Qed.

Lemma pad_recs_eq l n : pad_recs l n = if (length l <? n)%nat then l ++ repeat (empty_rec []) (n - length l) else l.
Proof. destruct l; reflexivity. Qed.

Lemma skipn_app_exact {A} (a b : list A) : skipn (length a) (a ++ b) = b.
Proof. induction a; [reflexivity|]. cbn [length app skipn]. assumption. Qed.
Lemma firstn_app_exact {A} (a b : list A) : firstn (length a) (a ++ b) = a.
Proof. induction a; [reflexivity|]. cbn [length app firstn]. f_equal. assumption. Qed.

Lemma Forall_firstn_skipn {A} (P : A -> Prop) n l : Forall P l -> Forall P (firstn n l) /\ Forall P (skipn n l).
Proof. intros H. apply Forall_app. rewrite firstn_skipn. exact H. Qed.

Lemma max_name_len_ge rows nr : In nr rows -> (length (cname (fst nr)) <= max_name_len rows)%nat.
Proof.
  unfold max_name_len. induction rows as [|r rows IH]; intros H; [contradiction|]. cbn [map fold_right].
  destruct H as [->|H]; [apply Nat.le_max_l|]. etransitivity; [exact (IH H)|apply Nat.le_max_r].
Qed.

(* write_msa_clu / write_msa_msf print 60 columns per block: (n + 59) / 60 blocks for n columns *)
Lemma nblocks_bound n : (n <= 60 * ((n + 59) / 60) < n + 60)%nat.
Proof. pose proof (Nat.div_mod (n + 59) 60 ltac:(lia)). pose proof (Nat.mod_upper_bound (n + 59) 60 ltac:(lia)). lia. Qed.

Lemma contains_app_l w x hay : contains hay w = true -> contains (x ++ hay) w = true.
Proof.
  intros H. apply contains_spec in H as (a & b & ->). apply contains_spec. exists (x ++ a), b. apply app_assoc.
Qed.

Definition chunk_of (alnlen b : nat) (row : list Z) : list Z := firstn 60 (skipn (60 * b) (firstn alnlen row)).
Definition line_of (mx alnlen b : nat) (nr : list Z * list Z) : list Z := block_line mx (fst nr) (chunk_of alnlen b (snd nr)).

(* [blocks] with the "\n" the writers print as a line of its own after each block read as two empty lines *)
Definition blocks2 (alnlen : nat) (rows : list (list Z * list Z)) : list (list Z) :=
  flat_map (fun b => map (line_of (max_name_len rows) alnlen b) rows ++ [[]; []]) (seq 0 ((alnlen + 59) / 60)).

Lemma unlines_app a b : unlines (a ++ b) = unlines a ++ unlines b.
Proof. apply flat_map_app. Qed.

Lemma unlines_blocks2 pre alnlen rows : unlines (pre ++ blocks alnlen rows) = unlines (pre ++ blocks2 alnlen rows).
Proof.
  rewrite !unlines_app. f_equal. unfold blocks, blocks2.
  induction (seq 0 ((alnlen + 59) / 60)) as [|b l IH]; [reflexivity|].
  cbn [flat_map]. rewrite !unlines_app, <- IH. reflexivity.
Qed.

Lemma Forall_blocks2 (P : list Z -> Prop) alnlen rows : P [] ->
  (forall b nr, In nr rows -> P (line_of (max_name_len rows) alnlen b nr)) -> Forall P (blocks2 alnlen rows).
Proof.
  intros P0 H. apply Forall_flat_map, Forall_forall. intros b _. apply Forall_app. split; [|repeat constructor; exact P0].
  apply Forall_map, Forall_forall. intros nr Hin. apply H, Hin.
Qed.

Lemma chunks_prefix alnlen row : length row = alnlen -> forall k,
  List.concat (map (fun b => chunk_of alnlen b row) (seq 0 k)) = firstn (60 * k) row.
Proof.
  intros L. induction k as [|k IH]; [reflexivity|].
  rewrite seq_S, map_app, concat_app, IH. cbn [Nat.add map List.concat]. rewrite app_nil_r.
  unfold chunk_of. rewrite (firstn_all2 (n := alnlen)) by lia. replace (60 * S k)%nat with (60 * k + 60)%nat by lia.
  rewrite firstn_skipn_comm, <- (Nat.min_l (60 * k) (60 * k + 60)) at 1 by lia. rewrite <- firstn_firstn. apply firstn_skipn.
Qed.

Theorem blocks_cover_row alnlen row : length row = alnlen ->
  List.concat (map (fun b => chunk_of alnlen b row) (seq 0 ((alnlen + 59) / 60))) = row.
Proof. intros L. rewrite (chunks_prefix alnlen row L). apply firstn_all2. pose proof (nblocks_bound alnlen). lia. Qed.

Lemma chunk_rowchars alnlen b row : good_row row -> Forall rowchar (chunk_of alnlen b row).
Proof. intros G. unfold chunk_of. apply Forall_firstn_skipn, Forall_firstn_skipn, Forall_firstn_skipn, G. Qed.

Lemma block_line_split mx name chunk : (length name <= 256)%nat ->
  block_line mx name chunk = name ++ repeat space (mx + 5 - length name) ++ chunk.
Proof. intros L. unfold block_line, cname. rewrite firstn_all2 by lia. reflexivity. Qed.

Section Body.
Variable alnlen mx : nat.
Definition row_ok (nr : list Z * list Z) : Prop :=
  name_ok (fst nr) /\ good_row (snd nr) /\ length (snd nr) = alnlen /\ (length (fst nr) <= 200)%nat /\ (length (fst nr) <= mx)%nat.
End Body.

Lemma line_shape alnlen mx b nr : row_ok alnlen mx nr ->
  line_of mx alnlen b nr = fst nr ++ 32 :: (repeat space (mx + 4 - length (fst nr)) ++ chunk_of alnlen b (snd nr)).
Proof.
  intros (_ & _ & _ & L200 & Lmx). unfold line_of. rewrite block_line_split by lia.
  replace (mx + 5 - length (fst nr))%nat with (S (mx + 4 - length (fst nr))) by lia. reflexivity.
Qed.

Lemma rows_ok_mx alnlen rows :
  Forall (fun nr => name_ok (fst nr) /\ good_row (snd nr) /\ length (snd nr) = alnlen /\ (length (fst nr) <= 200)%nat) rows ->
  Forall (row_ok alnlen (max_name_len rows)) rows.
Proof.
  intros H. apply Forall_forall. intros nr Hin. rewrite Forall_forall in H. destruct (H nr Hin) as (A & B & C & D).
  repeat split; try assumption; try apply A.
  pose proof (max_name_len_ge rows nr Hin) as M. unfold cname in M. rewrite firstn_all2 in M by lia. exact M.
Qed.

(* what the aligner receives: names and residues (kalign_run de-aligns first) *)
Definition records_of (recs : list rrec) : list (list Z * list Z) := map (fun r => (rr_name r, rr_res r)) recs.
Definition residues_of (rows : list (list Z * list Z)) : list (list Z * list Z) := map (fun nr => (fst nr, filter isalpha (snd nr))) rows.

Lemma rows_records_of (f : list Z * list Z -> rrec) rows :
  (forall nr, In nr rows -> rr_name (f nr) = fst nr /\ row_of (f nr) = snd nr /\ rr_res (f nr) = filter isalpha (snd nr)) ->
  rows_of (map f rows) = rows /\ records_of (map f rows) = residues_of rows.
Proof.
  intros H. unfold rows_of, records_of, residues_of. rewrite !map_map.
  split; [rewrite <- (map_id rows) at 2|]; apply map_ext_in; intros nr Hin; destruct (H nr Hin) as (N & R & S).
  - unfold row_of in R. rewrite N, R. destruct nr; reflexivity.
  - rewrite N, S. reflexivity.
Qed.

Lemma rec_of_rows rows : Forall (fun nr => good_row (snd nr)) rows ->
  rows_of (map rec_of rows) = rows /\ records_of (map rec_of rows) = residues_of rows.
Proof. intros H. apply rows_records_of. intros nr Hin. rewrite Forall_forall in H. apply rec_of_props, H, Hin. Qed.

Lemma clean_app a b : clean_line a -> clean_line b -> clean_line (a ++ b).
Proof. intros. apply Forall_app. split; assumption. Qed.
Lemma clean_spaces k : clean_line (repeat space k).
Proof. induction k; [constructor|]. constructor; [exact space_not_cntrl|assumption]. Qed.
Lemma clean_rowchars l : Forall rowchar l -> clean_line l.
Proof. intros H. eapply Forall_impl; [|exact H]. intros c Hc. apply (rowchar_facts c Hc). Qed.
Lemma clean_b l : forallb (fun c => negb (iscntrl c)) l = true -> clean_line l.
Proof. intros H. rewrite forallb_forall in H. apply Forall_forall. intros c Hc. apply negb_true_iff, H, Hc. Qed.

Lemma line_clean alnlen mx b nr : row_ok alnlen mx nr -> clean_line (line_of mx alnlen b nr).
Proof.
  intros H. pose proof H as ((_ & Hc & _) & Hg & _ & L200 & _). unfold line_of. rewrite block_line_split by lia.
  apply clean_app; [exact Hc|]. apply clean_app; [apply clean_spaces|]. apply clean_rowchars, chunk_rowchars. exact Hg.
Qed.

Definition clu_header (version : list Z) : list Z :=
  bytes_of_string "Kalign ("%string ++ version ++ bytes_of_string ") multiple sequence alignment"%string.

Lemma clu_header_facts version : clean_line version ->
  clean_line (clu_header version) /\ length (clu_header version) <> 1%nat /\ hint_clu (clu_header version) = true.
Proof.
  intros Hv. unfold clu_header. split; [|split].
  - apply clean_app; [|apply clean_app; [exact Hv|]]; apply clean_b; vm_compute; reflexivity.
  - rewrite app_length. change (length (bytes_of_string "Kalign ("%string)) with 8%nat. lia.
  - unfold hint_clu, has. rewrite app_assoc, (contains_app_l (bytes_of_string s_clu1)); [reflexivity|]. vm_compute. reflexivity.
Qed.

Definition digitish (c : Z) : Prop := c = 45 \/ 48 <= c <= 57.
Lemma digits_fuel_chars : forall fuel n acc, 0 <= n -> Forall digitish acc -> Forall digitish (digits_fuel fuel n acc).
Proof.
  induction fuel as [|f IH]; intros n acc Hn Ha; cbn [digits_fuel]; [exact Ha|].
  destruct (Z.ltb_spec n 10).
  - constructor; [right; lia|exact Ha].
  - apply IH; [apply Z.div_pos; lia|]. constructor; [|exact Ha]. right.
    pose proof (Z.mod_pos_bound n 10 ltac:(lia)). lia.
Qed.
Lemma decimal_chars n : Forall digitish (decimal n).
Proof.
  unfold decimal. destruct (Z.ltb_spec n 0).
  - constructor; [left; reflexivity|]. apply digits_fuel_chars; [lia|constructor].
  - apply digits_fuel_chars; [lia|constructor].
Qed.
Lemma digit_not_cntrl_b : forallb (fun c => negb (iscntrl c)) (45 :: map Z.of_nat (seq 48 10)) = true.
Proof. vm_compute. reflexivity. Qed.
Lemma digit_not_cntrl c : digitish c -> iscntrl c = false.
Proof.
  intros H. apply negb_true_iff, (proj1 (forallb_forall _ _) digit_not_cntrl_b).
  destruct H as [->|H]; [left; reflexivity|right]. apply in_map_iff. exists (Z.to_nat c). split; [lia|apply in_seq; lia].
Qed.

(* no control byte (the line survives read_file_stdin) and no '/' (a "//" would end the MSF header) *)
Definition tame (l : list Z) : Prop := clean_line l /\ ~ In 47 l.
Lemma tame_app a b : tame a -> tame b -> tame (a ++ b).
Proof. intros [A1 A2] [B1 B2]. split; [apply clean_app; assumption|]. intro H. apply in_app_or in H. tauto. Qed.
Lemma tame_nil : tame []. Proof. split; [constructor|intros []]. Qed.
Lemma tame_spaces k : tame (repeat space k).
Proof. split; [apply clean_spaces|]. intro H. apply repeat_spec in H. discriminate. Qed.
Lemma tame_decimal n : tame (decimal n).
Proof.
  pose proof (decimal_chars n) as H. split.
  - eapply Forall_impl; [|exact H]. exact digit_not_cntrl.
  - intro Hin. rewrite Forall_forall in H. destruct (H _ Hin); lia.
Qed.
Lemma tame_rowchars l : Forall rowchar l -> tame l.
Proof.
  intros H. split; [apply clean_rowchars; exact H|]. intro Hin. rewrite Forall_forall in H.
  destruct (rowchar_facts _ (H _ Hin)) as (_ & _ & _ & E & _). congruence.
Qed.
Lemma tame_b l : forallb (fun c => negb (iscntrl c) && negb (c =? 47)) l = true -> tame l.
Proof.
  intros H. rewrite forallb_forall in H. split.
  - apply Forall_forall. intros c Hc. specialize (H c Hc). apply andb_true_iff in H. destruct H as [H _]. apply negb_true_iff in H. exact H.
  - intro Hc. specialize (H 47 Hc). apply andb_true_iff in H. destruct H as [_ H]. discriminate.
Qed.

Definition name_line (mx alnlen : nat) (nr : list Z * list Z) : list Z :=
  bytes_of_string " Name: "%string ++ firstn mx (fst nr) ++ repeat space (mx - length (firstn mx (fst nr))) ++
  bytes_of_string "  Len:  "%string ++ pad_left 5 (decimal (Z.of_nat alnlen)) ++
  bytes_of_string "  Check: "%string ++ pad_left 4 (decimal (gcg_checksum (firstn alnlen (snd nr)))) ++
  bytes_of_string "  Weight: 1.00"%string.

Definition msf_title (basename date : list Z) (protein : bool) (alnlen : nat) (rows : list (list Z * list Z)) : list Z :=
  [space] ++ basename ++ bytes_of_string "  MSF: "%string ++ decimal (Z.of_nat alnlen) ++ bytes_of_string "  Type: "%string ++
       [if protein then 80 else 78] ++ bytes_of_string "  "%string ++ date ++ bytes_of_string "  Check: "%string ++
       decimal (gcg_mult alnlen rows) ++ bytes_of_string "  .."%string.

Definition msf_first (protein : bool) : list Z :=
  bytes_of_string (if protein then "!!AA_MULTIPLE_ALIGNMENT 1.0"%string else "!!NA_MULTIPLE_ALIGNMENT 1.0"%string).

Definition msf_lines (basename date : list Z) (protein : bool) (alnlen : nat) (rows : list (list Z * list Z)) : list (list Z) :=
  ([msf_first protein; []; msf_title basename date protein alnlen rows; []] ++
   map (name_line (max_name_len rows) alnlen) rows ++ [[]; bytes_of_string "//"%string; []]) ++ blocks2 alnlen rows.

Lemma write_msf_lines basename date protein alnlen rows :
  write_msf basename date protein alnlen rows = unlines (msf_lines basename date protein alnlen rows).
Proof. unfold msf_lines. rewrite <- unlines_blocks2. reflexivity. Qed.

Lemma Forall_msf_lines (P : list Z -> Prop) basename date protein alnlen rows :
  P (msf_first protein) -> P [] -> P (msf_title basename date protein alnlen rows) -> P (bytes_of_string "//"%string) ->
  (forall nr, In nr rows -> P (name_line (max_name_len rows) alnlen nr)) ->
  (forall b nr, In nr rows -> P (line_of (max_name_len rows) alnlen b nr)) ->
  Forall P (msf_lines basename date protein alnlen rows).
Proof.
  intros P1 P0 Pt Ps Pn Pb. apply Forall_app. split; [|apply Forall_blocks2; assumption].
  repeat (constructor; [assumption|]). apply Forall_app. split; [|repeat constructor; assumption].
  apply Forall_map, Forall_forall. exact Pn.
Qed.

Definition msf_row_ok (alnlen mx : nat) (nr : list Z * list Z) : Prop := row_ok alnlen mx nr /\ ~ In 47 (fst nr).

Definition msf_rows_ok (alnlen : nat) (rows : list (list Z * list Z)) : Prop :=
  Forall (fun nr => name_ok (fst nr) /\ good_row (snd nr) /\ length (snd nr) = alnlen /\ (length (fst nr) <= 200)%nat /\ ~ In 47 (fst nr)) rows.

Lemma msf_rows_ok_mx alnlen rows : msf_rows_ok alnlen rows ->
  Forall (msf_row_ok alnlen (max_name_len rows)) rows /\ Forall (row_ok alnlen (max_name_len rows)) rows.
Proof.
  intros H.
  assert (H1 : Forall (row_ok alnlen (max_name_len rows)) rows).
  { apply rows_ok_mx. eapply Forall_impl; [|exact H]. cbn beta. tauto. }
  split; [|exact H1]. apply Forall_forall. intros nr Hin. unfold msf_rows_ok in H. rewrite Forall_forall in H, H1.
  split; [apply H1; exact Hin|apply (H nr Hin)].
Qed.

Lemma name_line_tame mx alnlen nr : msf_row_ok alnlen mx nr -> tame (name_line mx alnlen nr).
Proof.
  intros (((_ & Hc & _) & _ & _ & _ & Lmx) & H47). unfold name_line. rewrite firstn_all2 by exact Lmx.
  unfold pad_left. repeat apply tame_app; try apply tame_spaces; try apply tame_decimal; try (split; assumption); apply tame_b; vm_compute; reflexivity.
Qed.

Lemma msf_lines_clean basename date protein rows alnlen :
  clean_line (msf_title basename date protein alnlen rows) -> msf_rows_ok alnlen rows ->
  Forall clean_line (msf_lines basename date protein alnlen rows).
Proof.
  intros Ht Hrows. destruct (msf_rows_ok_mx alnlen rows Hrows) as [Hm Hok]. rewrite Forall_forall in Hm, Hok.
  apply Forall_msf_lines; try assumption; try (constructor; fail).
  - destruct protein; apply clean_b; vm_compute; reflexivity.
  - apply clean_b; vm_compute; reflexivity.
  - intros nr Hin. apply (name_line_tame _ _ _ (Hm nr Hin)).
  - intros b nr Hin. apply line_clean, Hok, Hin.
Qed.

Lemma take_name_name : forall name n t, nospace name -> (length name <= n)%nat -> take_name (name ++ 32 :: t) n = name.
Proof.
  induction name as [|c name IH]; intros n t Hn Hl.
  - cbn [app]. destruct n; cbn [take_name]; [reflexivity|]. rewrite space_is_space. reflexivity.
  - destruct n as [|n]; [cbn [length] in Hl; lia|]. cbn [app take_name].
    inversion Hn as [|? ? Hc Hn']; subst. rewrite Hc. f_equal. apply IH; [exact Hn'|cbn [length] in Hl; lia].
Qed.

Lemma rep_comm k X : repeat space k ++ 32 :: X = 32 :: repeat space k ++ X.
Proof. rewrite app_comm_cons. change 32 with space at 2. rewrite repeat_cons, <- app_assoc. reflexivity. Qed.

Ltac eval_strings :=
  repeat match goal with |- context [bytes_of_string ?s] =>
    let v := eval vm_compute in (bytes_of_string s) in change (bytes_of_string s) with v end.

Lemma msf_header_decl name t l rest recs : l = bytes_of_string " Name: "%string ++ name ++ 32 :: t ->
  name <> [] -> nospace name -> (length name <= 255)%nat -> has l "//"%string = false -> has t "Len:"%string = true ->
  msf_header (l :: rest) recs = msf_header rest (recs ++ [empty_rec name]).
Proof.
  intros El Hne Hns Hl H1 H2. cbn [msf_header]. rewrite H1.
  assert (Hlen : has l "Len:"%string = true).
  { rewrite El. replace (name ++ 32 :: t) with ((name ++ [32]) ++ t) by (rewrite <- app_assoc; reflexivity).
    rewrite app_assoc. apply contains_app_l, H2. }
  rewrite Hlen, El. eval_strings. cbn [app after is_prefix Z.eqb Pos.eqb andb skipn skip_spaces]. rewrite space_is_space.
  assert (Hs : skip_spaces (name ++ 32 :: t) = name ++ 32 :: t).
  { destruct name as [|c0 nm]; [congruence|]. cbn [app skip_spaces]. inversion Hns as [|? ? Hc0 _]; subst. rewrite Hc0. reflexivity. }
  rewrite Hs, take_name_name; [reflexivity|exact Hns|]. cbn [length]. rewrite app_length. lia.
Qed.

Lemma msf_header_name_line mx alnlen nr rest recs : msf_row_ok alnlen mx nr ->
  msf_header (name_line mx alnlen nr :: rest) recs = msf_header rest (recs ++ [empty_rec (fst nr)]).
Proof.
  intros Hok. pose proof (name_line_tame mx alnlen nr Hok) as [_ H47].
  destruct Hok as ((Hname & _ & _ & L200 & Lmx) & _).
  eapply msf_header_decl; [|apply Hname|apply name_ok_nospace, Hname|lia|apply (byte_has _ "//"%string 47); [left; reflexivity|exact H47]|].
  - unfold name_line. rewrite firstn_all2 by exact Lmx. eval_strings. cbn [app]. rewrite rep_comm. reflexivity.
  - apply contains_app_l, contains_spec. eexists [_], _. reflexivity.
Qed.

Lemma msf_header_inert l rest recs : has l "//"%string = false -> after (bytes_of_string "Name:"%string) l = None ->
  msf_header (l :: rest) recs = msf_header rest recs.
Proof. intros H1 H2. cbn [msf_header]. rewrite H1, H2. reflexivity. Qed.

Lemma msf_header_names mx alnlen rest : forall rows recs, Forall (msf_row_ok alnlen mx) rows ->
  msf_header (map (name_line mx alnlen) rows ++ rest) recs = msf_header rest (recs ++ map (fun nr => empty_rec (fst nr)) rows).
Proof.
  induction rows as [|nr rows IH]; intros recs H.
  - cbn [map app]. rewrite app_nil_r. reflexivity.
  - inversion H as [|? ? Hnr H']; subst. cbn [map app]. rewrite msf_header_name_line by exact Hnr.
    rewrite IH by exact H'. rewrite <- app_assoc. reflexivity.
Qed.

(* the title line carries the output file's base name and a date: it must not look like a header entry *)
Definition title_inert (title : list Z) : Prop :=
  clean_line title /\ has title "//"%string = false /\ after (bytes_of_string "Name:"%string) title = None.

Lemma msf_header_written basename date protein alnlen rows :
  title_inert (msf_title basename date protein alnlen rows) -> msf_rows_ok alnlen rows ->
  msf_header (msf_lines basename date protein alnlen rows) [] = (map (fun nr => empty_rec (fst nr)) rows, [] :: blocks2 alnlen rows).
Proof.
  intros (_ & T1 & T2) Hrows. destruct (msf_rows_ok_mx alnlen rows Hrows) as [Hm _]. unfold msf_lines. cbn [app].
  rewrite msf_header_inert; [|destruct protein; vm_compute; reflexivity|destruct protein; vm_compute; reflexivity].
  rewrite msf_header_inert; [|vm_compute; reflexivity|vm_compute; reflexivity].
  rewrite msf_header_inert; [|exact T1|exact T2].
  rewrite msf_header_inert; [|vm_compute; reflexivity|vm_compute; reflexivity].
  rewrite <- app_assoc, msf_header_names by exact Hm. cbn [app].
  rewrite msf_header_inert; [|vm_compute; reflexivity|vm_compute; reflexivity].
  reflexivity.
Qed.

(* No Clustal marker in what the MSF writer prints (the sniffing looks for Clustal markers first).  All three markers
   contain a letter, ONE blank, a letter ([lone_blank]); the MSF writer prints a single blank only after ':' or at the
   start of a line, and at least two blanks after a name.  A line is walked from the left: a leading byte that is no
   letter, or is followed by a non-blank, starts no such triple (lone_blank_skip_nonletter, lone_blank_skip_nonblank);
   a blank-free word followed by two blanks contains and ends none (lone_blank_word_blanks). *)
Fixpoint lone_blank (l : list Z) : bool :=
  match l with
  | [] => false
  | x :: t => (match t with s :: y :: _ => isalpha x && (s =? 32) && isalpha y | _ => false end) || lone_blank t
  end.

Lemma lone_blank_mono a w b : lone_blank w = true -> lone_blank (a ++ w ++ b) = true.
Proof.
  intros H. induction a as [|x a IH]; [|cbn [app lone_blank]; rewrite IH; apply orb_true_r]. cbn [app].
  induction w as [|x w IH]; [discriminate|]. cbn [lone_blank app] in *. apply orb_true_iff in H as [H|H]; [|rewrite (IH H); apply orb_true_r].
  destruct w as [|s [|y w]]; try discriminate. cbn [app]. rewrite H. reflexivity.
Qed.
Lemma no_lone_blank_no_clu l : lone_blank l = false -> hint_clu l = false.
Proof.
  intros H. unfold hint_clu, has.
  assert (K : forall w, lone_blank (bytes_of_string w) = true -> contains l (bytes_of_string w) = false).
  { intros w Hw. destruct (contains l _) eqn:E; [|reflexivity]. apply contains_spec in E as (a & b & ->).
    rewrite (lone_blank_mono a _ b Hw) in H. discriminate. }
  rewrite !K by (vm_compute; reflexivity). reflexivity.
Qed.

Lemma lone_blank_skip_nonletter x t : isalpha x = false -> lone_blank (x :: t) = lone_blank t.
Proof. intros H. cbn [lone_blank]. destruct t as [|s [|y t]]; rewrite ?H; reflexivity. Qed.
Lemma lone_blank_skip_nonblank x s t : s <> 32 -> lone_blank (x :: s :: t) = lone_blank (s :: t).
Proof.
  intros H. cbn [lone_blank]. apply Z.eqb_neq in H. destruct t as [|y t]; [reflexivity|]. rewrite H, andb_false_r. reflexivity.
Qed.
Lemma lone_blank_skip_blanks k t : lone_blank (repeat space k ++ t) = lone_blank t.
Proof. induction k as [|k IH]; [reflexivity|]. cbn [repeat app]. rewrite lone_blank_skip_nonletter by exact space_not_alpha. exact IH. Qed.
Lemma lone_blank_word_blanks : forall a t, ~ In 32 a -> lone_blank (a ++ 32 :: 32 :: t) = lone_blank t.
Proof.
  induction a as [|x a IH]; intros t H.
  - cbn [app]. rewrite !lone_blank_skip_nonletter by exact space_not_alpha. reflexivity.
  - destruct a as [|x' a].
    + cbn [app]. cbn [lone_blank]. rewrite space_not_alpha, andb_false_r. cbn [orb].
      change (lone_blank (32 :: 32 :: t) = lone_blank t). rewrite !lone_blank_skip_nonletter by exact space_not_alpha. reflexivity.
    + cbn [app]. rewrite lone_blank_skip_nonblank; [|intro E; apply H; right; left; exact E].
      apply (IH t). intro K. apply H. right. exact K.
Qed.
Lemma lone_blank_word : forall a, ~ In 32 a -> lone_blank a = false.
Proof.
  induction a as [|x a IH]; intros H; [reflexivity|]. destruct a as [|s a]; [reflexivity|].
  rewrite lone_blank_skip_nonblank; [|intro E; apply H; right; left; exact E]. apply IH. intro K. apply H. right. exact K.
Qed.

Lemma decimal_no_space n : ~ In 32 (decimal n).
Proof. intro H. pose proof (decimal_chars n) as D. rewrite Forall_forall in D. destruct (D _ H) as [K|K]; lia. Qed.
Lemma rowchars_no_space l : Forall rowchar l -> ~ In 32 l.
Proof. intros H K. rewrite Forall_forall in H. destruct (rowchar_facts 32 (H _ K)) as (_ & E & _). congruence. Qed.

Lemma block_line_no_clu alnlen mx b nr : row_ok alnlen mx nr -> hint_clu (line_of mx alnlen b nr) = false.
Proof.
  intros H. apply no_lone_blank_no_clu. rewrite (line_shape alnlen mx b nr H).
  destruct H as ((_ & _ & H32 & _) & Hg & _ & L200 & Lmx).
  replace (mx + 4 - length (fst nr))%nat with (S (mx + 3 - length (fst nr))) by lia. cbn [repeat app].
  rewrite lone_blank_word_blanks by exact H32. rewrite lone_blank_skip_blanks. apply lone_blank_word. apply rowchars_no_space, chunk_rowchars. exact Hg.
Qed.

Ltac lone_blank_walk := repeat first [rewrite lone_blank_skip_nonletter by (vm_compute; reflexivity) | rewrite lone_blank_skip_nonblank by discriminate].

Lemma name_line_no_clu alnlen mx nr : msf_row_ok alnlen mx nr -> hint_clu (name_line mx alnlen nr) = false.
Proof.
  intros (((_ & _ & H32 & _) & _ & _ & _ & Lmx) & _). apply no_lone_blank_no_clu. unfold name_line. rewrite firstn_all2 by exact Lmx.
  eval_strings. unfold pad_left. cbn [app]. lone_blank_walk.                          (* " Name: " *)
  rewrite !rep_comm. rewrite lone_blank_word_blanks by exact H32. rewrite lone_blank_skip_blanks. lone_blank_walk.   (* the name, its padding, "  Len:  " *)
  rewrite <- app_assoc, lone_blank_skip_blanks. rewrite lone_blank_word_blanks by apply decimal_no_space. lone_blank_walk.   (* the length, "  Check: " *)
  rewrite <- app_assoc, lone_blank_skip_blanks. rewrite lone_blank_word_blanks by apply decimal_no_space. vm_compute. reflexivity.
Qed.

Lemma msf_lines_no_clu basename date protein rows alnlen :
  hint_clu (msf_title basename date protein alnlen rows) = false -> msf_rows_ok alnlen rows ->
  Forall (fun l => hint_clu l = false) (msf_lines basename date protein alnlen rows).
Proof.
  intros Ht Hrows. destruct (msf_rows_ok_mx alnlen rows Hrows) as [Hm Hok]. rewrite Forall_forall in Hm, Hok.
  apply Forall_msf_lines; try assumption; try reflexivity.
  - destruct protein; vm_compute; reflexivity.
  - intros nr Hin. apply (name_line_no_clu _ _ _ (Hm nr Hin)).
  - intros b nr Hin. apply (block_line_no_clu _ _ _ _ (Hok nr Hin)).
Qed.

Definition undecimal (l : list Z) : Z := fold_left (fun acc c => acc * 10 + (c - 48)) l 0.

Lemma digits_fuel_value : forall fuel n acc, 0 <= n < 10 ^ Z.of_nat fuel -> (fuel >= 1)%nat ->
  exists d, digits_fuel fuel n acc = d ++ acc /\ undecimal d = n /\ (1 <= length d)%nat.
Proof.
  induction fuel as [|f IH]; intros n acc Hn Hf; [lia|]. cbn [digits_fuel].
  destruct (Z.ltb_spec n 10) as [Hs|Hs].
  - exists [48 + n]. split; [reflexivity|split; [unfold undecimal; cbn [fold_left]; lia|cbn [length]; lia]].
  - assert (Hf1 : (f >= 1)%nat).
    { destruct f; [|lia]. cbn in Hn. lia. }
    destruct (IH (n / 10) ((48 + n mod 10) :: acc)) as (d & E & V & Ld).
    + split; [apply Z.div_pos; lia|]. apply Z.div_lt_upper_bound; [lia|].
      replace (Z.of_nat (S f)) with (Z.of_nat f + 1) in Hn by lia. rewrite Z.pow_add_r in Hn by lia. lia.
    + exact Hf1.
    + exists (d ++ [48 + n mod 10]). split; [rewrite E, <- app_assoc; reflexivity|].
      split; [|rewrite app_length; cbn [length]; lia].
      unfold undecimal in *. rewrite fold_left_app, V. cbn [fold_left]. pose proof (Z.div_mod n 10 ltac:(lia)). lia.
Qed.
