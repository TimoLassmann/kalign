(* C17, the floating-point end: *score = 100.0 * a / b (binary64), stored into a float.  The binary64 quotient is the
   rounding of the real one (score64_correct), and with 0 <= a <= b the stored value is a finite float in [0, 100]
   (score_in_range) - for all counter values below 2^46, which is what keeps 100 * a below 2^53 (the counters are
   uint64_t). *)
From Coq Require Import Reals Lra Lia.
From Flocq Require Import Core IEEE754.BinarySingleNaN IEEE754.Binary IEEE754.Bits.
From KV Require Import FP FPFacts Cmp CmpProofs.
Local Open Scope Z_scope.

Definition c100 : f64 := f64_of_bits 4636737291354636288.   (* 0x4059000000000000 = 100.0 *)

Local Notation fexp32 := (SpecFloat.fexp 24 128).
Local Notation rnd := (round_mode mode_NE).

Lemma c100_val : B2R 53 1024 c100 = 100%R /\ is_finite 53 1024 c100 = true /\ Bsign 53 1024 c100 = false.
Proof.
  split; [|split; reflexivity].
  unfold c100, f64_of_bits. set (x := b64_of_bits _). vm_compute in x. subst x.
  unfold B2R, F2R, Fnum, Fexp, cond_Zopp. simpl.
  change (Z.pow_pos 2 46) with 70368744177664. lra.
Qed.

(* the binary64 part of score_of: the product 100 * a is exact, so the quotient is the correctly rounded 100 a / b *)
Lemma score64_correct a b : 0 <= a < 2 ^ 46 -> 0 < b < 2 ^ 46 ->
  let q := f64_div (f64_mul c100 (f64_of_Z a)) (f64_of_Z b) in
  B2R 53 1024 q = round64 (IZR (100 * a) / IZR b) /\ is_finite 53 1024 q = true /\ Bsign 53 1024 q = false.
Proof.
  intros Ha Hb q. destruct c100_val as (Vc & Fc & Sc).
  assert (P53 : 2 ^ 53 = 128 * 2 ^ 46) by reflexivity.
  destruct (of_Z_exact a ltac:(lia)) as (Va & Fa & Sa). destruct (of_Z_exact b ltac:(lia)) as (Vb & Fb & Sb).
  destruct (f64_mul_correct c100 (f64_of_Z a) Fc Fa) as (Vm & Fm & Sm).
  { rewrite Vc, Va, <- mult_IZR. apply int_below_bpow60. lia. }
  rewrite Vc, Va, <- mult_IZR, round_generic in Vm; [|apply valid_rnd_N|apply fmt_int; lia].
  assert (B0 : (1 <= IZR b)%R) by (apply IZR_le; lia). assert (A0 : (0 <= IZR (100 * a))%R) by (apply IZR_le; lia).
  destruct (f64_div_correct (f64_mul c100 (f64_of_Z a)) (f64_of_Z b) Fm) as (Vd & Fd & Sd); rewrite ?Vm, ?Vb in *; [lra| |].
  - assert (0 <= IZR (100 * a) / IZR b <= IZR (100 * a))%R.
    { split; [apply Rmult_le_pos; [lra|left; apply Rinv_0_lt_compat; lra]|].
      apply (Rmult_le_reg_r (IZR b)); [lra|]. unfold Rdiv. rewrite Rmult_assoc, Rinv_l by lra. nra. }
    rewrite Rabs_pos_eq by lra. eapply Rle_trans; [apply H|]. rewrite <- (Rabs_pos_eq _ A0). apply int_below_bpow60. lia.
  - rewrite Sm, Sc, Sa, Sb in Sd. repeat split; assumption.
Qed.

Lemma to_f32_range d : is_finite 53 1024 d = true -> (0 <= B2R 53 1024 d <= 100)%R ->
  is_finite 24 128 (f32_of_f64 d) = true /\ (0 <= B2R 24 128 (f32_of_f64 d) <= 100)%R.
Proof.
  intros Fd Hd. destruct d as [s|s|s pl e0|s m e Hb]; try discriminate.
  - cbn. split; [reflexivity|lra].
  - unfold f32_of_f64.
    pose proof (binary_normalize_correct 24 128 (eq_refl _) (eq_refl _) mode_NE (cond_Zopp s (Zpos m)) e s) as H.
    change (F2R (Float radix2 (cond_Zopp s (Zpos m)) e)) with (B2R 53 1024 (B754_finite 53 1024 s m e Hb)) in H.
    set (x := B2R 53 1024 (B754_finite 53 1024 s m e Hb)) in *.
    assert (Hr : (0 <= round radix2 fexp32 rnd x <= 100)%R).
    { split; [apply round_ge_generic|apply round_le_generic]; try apply Hd; try apply valid_rnd_N; try (apply FLT_exp_valid; reflexivity);
        [apply generic_format_0|apply (fmt_int 24 128 100); lia]. }
    rewrite Rlt_bool_true in H.
    + destruct H as (A & B & _). split; [exact B|]. rewrite A. exact Hr.
    + rewrite Rabs_pos_eq by apply Hr. eapply Rle_lt_trans; [apply Hr|].
      change (bpow radix2 128) with (IZR (2 ^ 128)). apply (IZR_lt 100). reflexivity.
Qed.

Theorem score_in_range c : (ident_total c <= ref_total c)%N -> (0 < ref_total c < 2 ^ 46)%N ->
  exists x : f32, score_of c = bits_of_f32 x /\ is_finite 24 128 x = true /\ (0 <= B2R 24 128 x <= 100)%R.
Proof.
  intros L R. unfold score_of. fold (ident_total c) (ref_total c). unfold f64_of_N. fold c100.
  set (a := Z.of_N (ident_total c)). set (b := Z.of_N (ref_total c)).
  assert (Hb : 0 < b < 2 ^ 46) by (unfold b; change (2 ^ 46) with (Z.of_N (2 ^ 46)); lia).
  assert (Ha : 0 <= a <= b) by (unfold a, b; lia).
  destruct (score64_correct a b ltac:(lia) Hb) as (V & F & _).
  eexists. split; [reflexivity|]. apply to_f32_range; [exact F|]. rewrite V.
  assert (0 < IZR b)%R by (apply IZR_lt; lia).
  split; [apply round_ge_generic|apply round_le_generic]; try apply valid_rnd_N; try (apply FLT_exp_valid; reflexivity).
  - apply generic_format_0.
  - apply Rmult_le_pos; [apply IZR_le; lia|left; apply Rinv_0_lt_compat; assumption].
  - apply (fmt_int 53 1024 100); lia.
  - apply (Rmult_le_reg_r (IZR b)); [assumption|]. unfold Rdiv. rewrite Rmult_assoc, Rinv_l, Rmult_1_r by lra.
    rewrite <- (mult_IZR 100 b). apply IZR_le. lia.
Qed.
