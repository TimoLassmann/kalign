(* Exact-arithmetic facts about detect_alphabet's tables and decision (C13, C14, C04). *)
From KV Require Import ListFacts Base Detect.
From KV Require Export DetectDefs.
From Coq Require Import Permutation.
Local Open Scope Z_scope.

(* Every table entry has magnitude >= 1 (biased exponent >= 1023), so its value scaled by 2^1074 is a multiple of 2^1022.
   f64_small is that quotient, and the bounds on the margins are evaluated on it, against 2^52 in place of 2^1074.
   It reads the fields by shift and mask because Z.div and Z.modulo are slow to evaluate. *)
Definition f64_small (b : N) : Z :=
  let z := Z.of_N b in
  let v := (2 ^ 52 + Z.land z (Z.ones 52)) * 2 ^ (Z.land (Z.shiftr z 52) (Z.ones 11) - 1023) in
  if Z.shiftr z 63 =? 1 then - v else v.

Lemma f64_scaled_small b : 1023 <= (Z.of_N b / 2 ^ 52) mod 2 ^ 11 -> f64_scaled b = f64_small b * 2 ^ 1022.
Proof.
  unfold f64_scaled, f64_small. cbv zeta. rewrite !Z.shiftr_div_pow2, !Z.land_ones by lia.
  set (e := (Z.of_N b / 2 ^ 52) mod 2 ^ 11). intros H.
  destruct (Z.eqb_spec e 0); [lia|]. replace (e - 1) with (e - 1023 + 1022) by lia. rewrite Z.pow_add_r by lia.
  generalize (2 ^ 1022), (2 ^ (e - 1023)), (2 ^ 52 + Z.of_N b mod 2 ^ 52). intros. destruct (_ =? 1); ring.
Qed.

Lemma table_exponents b : In b (detect_DNA ++ detect_protein) -> 1023 <= (Z.of_N b / 2 ^ 52) mod 2 ^ 11 < 2047.
Proof.
  intros H.
  apply (proj1 (forallb_forall (fun b => let e := Z.land (Z.shiftr (Z.of_N b) 52) (Z.ones 11) in (1023 <=? e) && (e <? 2047)) _)) in H;
    [|vm_compute; reflexivity].
  cbv zeta in H. rewrite Z.shiftr_div_pow2, Z.land_ones in H by lia. lia.
Qed.

Definition small_margins : list Z := map (fun dp => f64_small (fst dp) - f64_small (snd dp)) (combine detect_DNA detect_protein).

Lemma margins_small : margins = map (fun x => x * 2 ^ 1022) small_margins.
Proof.
  unfold margins, small_margins. rewrite map_map. apply map_ext_in. intros [d p] Hin. cbn [fst snd].
  rewrite !f64_scaled_small, Z.mul_sub_distr_r; [reflexivity|apply table_exponents, in_or_app..];
    [right; exact (in_combine_r _ _ _ _ Hin)|left; exact (in_combine_l _ _ _ _ Hin)].
Qed.

Lemma margin_at_small c : margin_at c = nthZ 0 small_margins c * 2 ^ 1022.
Proof.
  unfold margin_at, nthZ. rewrite margins_small. destruct (c <? 0); [reflexivity|].
  exact (map_nth (fun x => x * 2 ^ 1022) small_margins 0 _).
Qed.

Lemma exact_loop_scale P : forall freq i ms, exact_loop i freq (map (fun x => x * P) ms) = exact_loop i freq ms * P.
Proof.
  induction freq as [|c freq IH]; intros i [|m ms]; try reflexivity. cbn [map exact_loop]. rewrite IH. destruct (_ && _); ring.
Qed.

Lemma exact_margin_small freq : exact_margin freq = exact_loop 0 freq small_margins * 2 ^ 1022.
Proof. unfold exact_margin. rewrite margins_small. apply exact_loop_scale. Qed.

(* 1.2039 < nucleotide < 1.2040, 11.20 < u < 11.21, -10.28 < protein-only < -10.27, -0.2763 < other letter < -0.2762,
   in nats, for a margin [mg c] given in multiples of 1/u *)
Definition margin_class_ok (u : Z) (mg : Z -> Z) (c : Z) : bool :=
  (if is_nuc_letter c then (12039 * u <? 10000 * mg c) && (10000 * mg c <? 12040 * u) else true) &&
  (if is_u_letter c then (1120 * u <? 100 * mg c) && (100 * mg c <? 1121 * u) else true) &&
  (if is_protein_only c then (-1028 * u <? 100 * mg c) && (100 * mg c <? -1027 * u) else true) &&
  (if is_other_letter c then (-2763 * u <? 10000 * mg c) && (10000 * mg c <? -2762 * u) else true).

Lemma margin_class_ok_scale s u mg c m : 0 < s -> mg c = m * s -> margin_class_ok (u * s) mg c = margin_class_ok u (fun _ => m) c.
Proof.
  intros Hs E. unfold margin_class_ok. rewrite E, !Z.mul_assoc.
  assert (L : forall x y, (x * s <? y * s) = (x <? y)).
  { intros x y. destruct (Z.ltb_spec x y) as [H|H]; [apply Z.ltb_lt, Z.mul_lt_mono_pos_r|apply Z.ltb_ge, Z.mul_le_mono_pos_r]; assumption. }
  rewrite !L. reflexivity.
Qed.

Lemma margin_class_b c : In c idx128 -> margin_class_ok unit1074 margin_at c = true.
Proof.
  intros Hc. unfold unit1074. replace 1074 with (52 + 1022) by reflexivity. rewrite Z.pow_add_r by lia.
  rewrite (margin_class_ok_scale (2 ^ 1022) _ _ c _ ltac:(apply Z.pow_pos_nonneg; lia) (margin_at_small c)).
  revert c Hc. apply forallb_forall. vm_compute. reflexivity.
Qed.

Lemma tables_finite tab : incl tab (detect_DNA ++ detect_protein) -> forallb is_finite64 tab = true.
Proof.
  intros H. apply forallb_forall. intros b Hb. apply H, table_exponents in Hb. unfold is_finite64.
  destruct (Z.eqb_spec ((Z.of_N b / 2 ^ 52) mod 2 ^ 11) 2047); [lia|reflexivity].
Qed.

Lemma in_idx128 c : 0 <= c < 128 -> In c idx128.
Proof. intros Hc. unfold idx128. apply in_map_iff. exists (Z.to_nat c). split; [lia|]. apply in_seq. lia. Qed.

Lemma between_spec (b : bool) lo x hi : (if b then (lo <? x) && (x <? hi) else true) = true -> b = true -> lo < x < hi.
Proof. intros H ->. apply andb_true_iff in H. destruct H as [A B]. apply Z.ltb_lt in A, B. split; assumption. Qed.

Lemma margin_class c : 0 <= c < 128 ->
  (is_nuc_letter c = true -> 12039 * unit1074 < 10000 * margin_at c < 12040 * unit1074) /\
  (is_u_letter c = true -> 1120 * unit1074 < 100 * margin_at c < 1121 * unit1074) /\
  (is_protein_only c = true -> -1028 * unit1074 < 100 * margin_at c < -1027 * unit1074) /\
  (is_other_letter c = true -> -2763 * unit1074 < 10000 * margin_at c < -2762 * unit1074).
Proof.
  intros Hc. pose proof (margin_class_b c (in_idx128 c Hc)) as M. unfold margin_class_ok in M.
  apply andb_true_iff in M. destruct M as [M Mo]. apply andb_true_iff in M. destruct M as [M Mp].
  apply andb_true_iff in M. destruct M as [Mn Mu].
  exact (conj (between_spec _ _ _ _ Mn) (conj (between_spec _ _ _ _ Mu) (conj (between_spec _ _ _ _ Mp) (between_spec _ _ _ _ Mo)))).
Qed.

Lemma unit_pos : 0 < unit1074. Proof. unfold unit1074. apply Z.pow_pos_nonneg; lia. Qed.

Lemma exact_loop_step i c freq : 0 <= i < 128 ->
  exact_loop i (c :: freq) (skipn (Z.to_nat i) margins) =
  (if negb (c =? 0) && isalpha i then c * margin_at i else 0) + exact_loop (i + 1) freq (skipn (Z.to_nat (i + 1)) margins).
Proof.
  intros Hi. rewrite (skipn_nth_cons 0 (Z.to_nat i)).
  - unfold margin_at, nthZ. destruct (Z.ltb_spec i 0); [lia|]. replace (Z.to_nat (i + 1)) with (S (Z.to_nat i)) by lia. reflexivity.
  - change (length margins) with 128%nat. lia.
Qed.

(* C13, premise 1, exact arithmetic: if every counted residue letter is one of A C G T U N
   (either case), the DNA model wins by at least 1.2039 nats per letter - for all counts. *)
Lemma exact_nucleotide_loop : forall freq i,
  0 <= i -> i + Z.of_nat (length freq) <= 128 -> hist_only nuc_or_u i freq ->
  12039 * unit1074 * total_letters i freq <= 10000 * exact_loop i freq (skipn (Z.to_nat i) margins).
Proof.
  induction freq as [|c freq IH]; intros i Hi Hlen Hh; [cbn [total_letters exact_loop]; lia|].
  cbn [length] in Hlen. destruct Hh as (Hc & Hgood & Hrest).
  rewrite exact_loop_step by lia. cbn [total_letters]. specialize (IH (i + 1) ltac:(lia) ltac:(lia) Hrest).
  pose proof unit_pos as Hu. destruct (isalpha i) eqn:Ea; [|rewrite andb_false_r; lia].
  destruct (Z.eqb_spec c 0) as [->|Ec]; cbn [negb andb]; [lia|].
  destruct (margin_class i ltac:(lia)) as (Mn & Mu & _). specialize (Hgood Ec eq_refl). apply orb_true_iff in Hgood.
  assert (Hmp : 12039 * unit1074 < 10000 * margin_at i) by (destruct Hgood as [E|E]; [apply Mn in E|apply Mu in E]; lia).
  assert (12039 * unit1074 * c <= 10000 * margin_at i * c) by (apply Z.mul_le_mono_nonneg_r; lia). lia.
Qed.

Lemma exact_nucleotide_margin freq : (length freq <= 128)%nat -> hist_only nuc_or_u 0 freq ->
  12039 * unit1074 * total_letters 0 freq <= 10000 * exact_margin freq.
Proof. intros Hl. unfold exact_margin. rewrite <- (skipn_O margins). apply (exact_nucleotide_loop freq 0); lia. Qed.

Lemma bump_comm : forall l i j, bump (bump l i) j = bump (bump l j) i.
Proof.
  induction l as [|x l IH]; intros [|i] [|j]; simpl; auto. f_equal. apply IH.
Qed.

Lemma count_byte_comm h a b : count_byte (count_byte h a) b = count_byte (count_byte h b) a.
Proof.
  unfold count_byte. destruct ((0 <=? a) && (a <? 128)), ((0 <=? b) && (b <? 128)); auto. apply bump_comm.
Qed.

Lemma fold_left_perm {A B} (f : A -> B -> A) : (forall a x y, f (f a x) y = f (f a y) x) ->
  forall l l', Permutation l l' -> forall a, fold_left f l a = fold_left f l' a.
Proof.
  intros C l l' P. induction P; intros a; cbn [fold_left]; [reflexivity|apply IHP|rewrite C; reflexivity|rewrite IHP1; apply IHP2].
Qed.

Lemma count_seqs_comm h s1 s2 :
  fold_left count_byte s2 (fold_left count_byte s1 h) = fold_left count_byte s1 (fold_left count_byte s2 h).
Proof. rewrite <- !fold_left_app. apply (fold_left_perm count_byte count_byte_comm), Permutation_app_comm. Qed.

(* every letter's margin is below 1.2040 (a c g t n), 11.21 (u), -10.27 (protein-only) or 0 (any other letter) *)
Lemma exact_upper_loop : forall freq i,
  0 <= i -> i + Z.of_nat (length freq) <= 128 -> hist_nonneg freq ->
  10000 * exact_loop i freq (skipn (Z.to_nat i) margins) <=
  unit1074 * (12040 * class_count is_nuc_letter i freq + 112100 * class_count only_u i freq
              - 102700 * class_count only_po i freq).
Proof.
  induction freq as [|c freq IH]; intros i Hi Hlen Hh; [cbn [class_count exact_loop]; lia|].
  cbn [length] in Hlen. destruct Hh as (Hc & Hrest).
  rewrite exact_loop_step by lia. cbn [class_count]. specialize (IH (i + 1) ltac:(lia) ltac:(lia) Hrest).
  pose proof unit_pos as Hu. destruct (isalpha i) eqn:Ea; cbn [andb]; [|rewrite andb_false_r; lia].
  destruct (Z.eqb_spec c 0) as [->|Ec]; cbn [negb andb]; [destruct (is_nuc_letter i), (only_u i), (only_po i); lia|].
  set (K := if is_nuc_letter i then 12040 else if is_u_letter i then 112100 else if is_protein_only i then -102700 else 0).
  assert (HK : 10000 * margin_at i <= K * unit1074).
  { destruct (margin_class i ltac:(lia)) as (Mn & Mu & Mp & Mo). unfold is_other_letter in Mo. rewrite Ea in Mo. unfold K.
    destruct (is_nuc_letter i); [specialize (Mn eq_refl); lia|]. destruct (is_u_letter i); [specialize (Mu eq_refl); lia|].
    destruct (is_protein_only i); [specialize (Mp eq_refl)|specialize (Mo eq_refl)]; lia. }
  assert (10000 * margin_at i * c <= K * unit1074 * c) by (apply Z.mul_le_mono_nonneg_r; lia).
  unfold only_u, only_po, K in *. destruct (is_nuc_letter i), (is_u_letter i), (is_protein_only i); cbn [negb andb]; lia.
Qed.

Lemma exact_upper_margin freq : (length freq <= 128)%nat -> hist_nonneg freq ->
  10000 * exact_margin freq <=
  unit1074 * (12040 * class_count is_nuc_letter 0 freq + 112100 * class_count only_u 0 freq - 102700 * class_count only_po 0 freq).
Proof. intros Hl. unfold exact_margin. rewrite <- (skipn_O margins). apply (exact_upper_loop freq 0); lia. Qed.

(* three quarters U, one quarter E: meets premise 2 and is detected as nucleotide (Properties_C13.C13_premise2_refuted_by_U) *)
Definition u_rich : list (list Z) := [[85;85;85;69;85;85;85;69]; [85;85;85;69;85;85;85;69]]%Z.

Lemma detect_loop_letters_only : forall f1 f2 i dna prot sd sp,
  length f1 = length f2 ->
  (forall k, isalpha (i + Z.of_nat k) = true -> nth k f1 0 = nth k f2 0) ->
  detect_loop i f1 dna prot sd sp = detect_loop i f2 dna prot sd sp.
Proof.
  induction f1 as [|c1 f1 IH]; intros [|c2 f2] i dna prot sd sp Hl H; simpl in Hl; try lia; [reflexivity|].
  cbn [detect_loop]. destruct dna as [|d dna]; [reflexivity|]. destruct prot as [|p prot]; [reflexivity|].
  assert (forall k, isalpha (i + 1 + Z.of_nat k) = true -> nth k f1 0 = nth k f2 0) as H'.
  { intros k Hk. apply (H (S k)). rewrite <- Hk. f_equal. lia. }
  destruct (isalpha i) eqn:Ea.
  - assert (c1 = c2) as -> by (apply (H 0%nat); rewrite <- Ea; f_equal; lia).
    destruct (negb (c2 =? 0)); cbn [andb]; apply IH; auto; lia.
  - rewrite !andb_false_r. apply IH; auto; lia.
Qed.

Theorem detect_sums_letters_only f1 f2 :
  length f1 = length f2 ->
  (forall i, isalpha (Z.of_nat i) = true -> nth i f1 0 = nth i f2 0) ->
  detect_sums f1 = detect_sums f2.
Proof. intros Hl H. unfold detect_sums. apply detect_loop_letters_only; auto. Qed.
