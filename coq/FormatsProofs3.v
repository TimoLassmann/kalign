(* C04: the Clustal and MSF readers on ANY block layout - any number of blocks, any block widths (also different
   from block to block and from row to row), blanks and digits anywhere in the residue part, consensus lines -
   read every sequence as the record of the concatenation of its pieces.  Hence two layouts of the same rows are
   read as the same records.
   C06: what kalign's own Clustal and MSF writers print is one such layout, which gives their round trips.
   At the end, C04 (f): two inputs read one after the other. *)
From KV Require Import ListFacts Base Formats FormatsProofs FormatsProofs2.
Import Coq.Init.Datatypes.
Import ListNotations.
Local Open Scope list_scope.
Local Open Scope Z_scope.

(* a name as the readers of a general layout need it (no FASTA sniffing is involved, so '!' and ':' may occur);
   255 = MSA_NAME_LEN - 1: read_clu looks for the end of the name within that many bytes *)
Definition gname_ok (n : list Z) : Prop := n <> [] /\ nospace n /\ (length n <= 255)%nat.

(* a separator between blocks: empty lines and lines that start with white space (consensus lines), at least one empty *)
Definition sep_line (l : list Z) : Prop := l = [] \/ exists c t, l = c :: t /\ isspace c = true.
Definition seps_ok (seps : list (list Z)) : Prop := Forall sep_line seps /\ In [] seps.

(* an item of a block: name, the bytes after the first blank, and the normalised row shown by the earlier blocks *)
Definition item := (list Z * list Z * list Z)%type.
Definition it_name (x : item) := fst (fst x).
Definition it_payload (x : item) := snd (fst x).
Definition it_line (x : item) : list Z := it_name x ++ 32 :: it_payload x.

(* a layout, row-wise: each row is its name and its pieces, one per block; block j shows piece j of every row *)
Definition lrow := (list Z * list (list Z))%type.
Definition item_of (j : nat) (row : lrow) : item := (fst row, nth j (snd row) [], norm (List.concat (firstn j (snd row)))).

Section Layout.
Variable rows : list lrow.
Variable k : nat.
Variable seps : nat -> list (list Z).

Definition block_lines (j : nat) : list (list Z) := map it_line (map (item_of j) rows) ++ seps j.
Definition body_lines : list (list Z) := flat_map block_lines (seq 0 k).
End Layout.

(* the record a row of a layout is read as: the reader skips the name and feeds the rest of each line, first blank
   included, to the row's record *)
Definition layout_rec (row : lrow) : rrec := read_rec (fst row) (map (cons 32) (snd row)).

Lemma norm_concat_spaced ps : norm (List.concat (map (cons 32) ps)) = norm (List.concat ps).
Proof.
  induction ps as [|p ps IH]; [reflexivity|]. cbn [map List.concat].
  rewrite <- app_comm_cons, norm_cons_space, !norm_app, IH. reflexivity.
Qed.

Lemma layout_rec_spec row :
  rr_name (layout_rec row) = fst row /\ row_of (layout_rec row) = norm (List.concat (snd row)) /\
  rr_res (layout_rec row) = filter isalpha (List.concat (snd row)).
Proof.
  destruct (read_rec_spec (fst row) (map (cons 32) (snd row))) as (_ & R & N & S). unfold layout_rec.
  rewrite N, R, S, <- filter_norm, norm_concat_spaced, filter_norm. auto.
Qed.

Definition rec_at (j : nat) (row : lrow) : rrec := layout_rec (fst row, firstn j (snd row)).

Lemma rec_at_S j row : (j < length (snd row))%nat ->
  feed_line (rec_at j row) (32 :: it_payload (item_of j row)) = rec_at (S j) row.
Proof.
  intros H. unfold rec_at, layout_rec. cbn [fst snd]. rewrite read_rec_snoc, (firstn_S_nth [] j _ H), map_app. reflexivity.
Qed.

(* The body phases of read_clu and read_msf differ only in the state they thread.  Both are a step function that
   satisfies the two equations below (on a separator line; on the line of the next sequence of the block), and all
   that is said about blocks follows from these. *)
Section Body.
Variable St : Type.
Variable step : St -> list Z -> St.
Variable mk : list rrec -> nat -> list Z -> St.   (* records, index of the next record of the block, histogram;
                                                     a triple for read_clu, Some of a triple for read_msf *)
Hypothesis step_sep : forall recs k h l, sep_line l ->
  step (mk recs k h) l = mk recs (match l with [] => 0%nat | _ => k end) h.
Hypothesis step_item : forall pre r suf h name p, gname_ok name -> rr_name r = name ->
  step (mk (pre ++ r :: suf) (length pre) h) (name ++ 32 :: p) =
  mk (pre ++ feed_line r (32 :: p) :: suf) (S (length pre)) (count_line h (32 :: p)).

Lemma seps_fold : forall seps recs k h, Forall sep_line seps -> (In [] seps \/ k = 0%nat) ->
  fold_left step seps (mk recs k h) = mk recs 0%nat h.
Proof.
  induction seps as [|l seps IH]; intros recs k h Hs Hin.
  - destruct Hin as [[]| ->]. reflexivity.
  - inversion Hs as [|? ? Hl Hs']; subst. cbn [fold_left]. rewrite (step_sep _ _ _ _ Hl).
    apply IH; [exact Hs'|]. destruct l; [right; reflexivity|].
    destruct Hin as [[E|Hin]|Hk]; [discriminate|left; exact Hin|right; exact Hk].
Qed.

Variable k : nat.

Lemma rows_fold j : (j < k)%nat -> forall rws pre h,
  Forall (fun row : lrow => gname_ok (fst row)) rws -> Forall (fun row : lrow => length (snd row) = k) rws ->
  exists h', fold_left step (map it_line (map (item_of j) rws)) (mk (pre ++ map (rec_at j) rws) (length pre) h) =
             mk (pre ++ map (rec_at (S j)) rws) (length pre + length rws)%nat h'.
Proof.
  intros Hj. induction rws as [|row rws IH]; intros pre h HN HP.
  - exists h. cbn. rewrite Nat.add_0_r. reflexivity.
  - apply Forall_cons_iff in HN as [Hn HN'], HP as [Hl HP']. cbn [map fold_left].
    change (it_line (item_of j row)) with (fst row ++ 32 :: it_payload (item_of j row)).
    rewrite (step_item _ _ _ _ _ _ Hn) by exact (proj1 (layout_rec_spec (fst row, firstn j (snd row)))). rewrite rec_at_S by lia.
    destruct (IH (pre ++ [rec_at (S j) row]) (count_line h (32 :: it_payload (item_of j row))) HN' HP') as (h' & E').
    exists h'. rewrite <- !app_assoc, app_length, Nat.add_1_r in E'. cbn [app length] in *.
    rewrite E', Nat.add_succ_r. reflexivity.
Qed.

Variable rows : list lrow.
Variable seps : nat -> list (list Z).
Hypothesis names_ok : Forall (fun row : lrow => gname_ok (fst row)) rows.
Hypothesis pieces : Forall (fun row : lrow => length (snd row) = k) rows.
Hypothesis seps_good : forall j, seps_ok (seps j).

Lemma blocks_fold : forall cnt j h, (j + cnt <= k)%nat ->
  exists h', fold_left step (flat_map (block_lines rows seps) (seq j cnt)) (mk (map (rec_at j) rows) 0%nat h) =
             mk (map (rec_at (j + cnt)) rows) 0%nat h'.
Proof.
  induction cnt as [|cnt IH]; intros j h Hk.
  - exists h. rewrite Nat.add_0_r. reflexivity.
  - cbn [seq flat_map]. unfold block_lines at 1. rewrite !fold_left_app.
    destruct (rows_fold j ltac:(lia) rows [] h names_ok pieces) as (h1 & E). cbn [app length] in E. rewrite E.
    destruct (seps_good j) as [S1 S2]. rewrite seps_fold by auto.
    destruct (IH (S j) h1 ltac:(lia)) as (h' & E'). exists h'. rewrite E', Nat.add_succ_r. reflexivity.
Qed.

Theorem body_fold lead h0 : Forall sep_line lead ->
  exists h, fold_left step (lead ++ body_lines rows k seps) (mk (map (fun row => empty_rec (fst row)) rows) 0%nat h0) =
            mk (map layout_rec rows) 0%nat h.
Proof.
  intros Hl. rewrite fold_left_app, seps_fold by auto.
  destruct (blocks_fold k 0%nat h0 (le_n _)) as (h & E). exists h. cbn [Nat.add] in E.
  etransitivity; [exact E|]. f_equal. apply map_ext_in. intros row Hin.
  unfold rec_at. rewrite firstn_all2 by (rewrite (proj1 (Forall_forall _ _) pieces row Hin); lia). destruct row; reflexivity.
Qed.
End Body.

Lemma msf_sep recs k h l : sep_line l -> msf_step (Some (recs, k, h)) l = Some (recs, match l with [] => 0%nat | _ => k end, h).
Proof. intros [->|(c & t & -> & Hc)]; [reflexivity|]. unfold msf_step. rewrite Hc. reflexivity. Qed.

Lemma msf_item pre r suf h name p : gname_ok name -> rr_name r = name ->
  msf_step (Some (pre ++ r :: suf, length pre, h)) (name ++ 32 :: p) =
  Some (pre ++ feed_line r (32 :: p) :: suf, S (length pre), count_line h (32 :: p)).
Proof.
  intros (Hne & Hns & Hl) Hn. destruct name as [|c0 nm]; [congruence|].
  unfold msf_step. cbn [app]. inversion Hns as [|? ? Hc0 _]; subst. rewrite Hc0.
  rewrite app_length. cbn [length].
  destruct (Nat.leb_spec (length pre + S (length suf)) (length pre)); [lia|].
  rewrite nth_middle, Hn. rewrite Nat.min_l by lia.
  change (c0 :: nm ++ 32 :: p) with ((c0 :: nm) ++ 32 :: p).
  rewrite skipn_app_exact, update_nth_app. reflexivity.
Qed.

Lemma clu_sep recs k h l : sep_line l -> clu_step (recs, k, h) l = (recs, match l with [] => 0%nat | _ => k end, h).
Proof. intros [->|(c & t & -> & Hc)]; [reflexivity|]. unfold clu_step. rewrite Hc. reflexivity. Qed.

Lemma first_space_name : forall name i fuel rest, nospace name -> (length name <= fuel)%nat ->
  first_space (name ++ 32 :: rest) i fuel = (i + length name)%nat.
Proof.
  induction name as [|c name IH]; intros i fuel rest Hn Hf.
  - cbn [app length]. destruct fuel; cbn [first_space]; [lia|]. rewrite space_is_space. lia.
  - destruct fuel as [|f]; [cbn [length] in Hf; lia|]. cbn [app first_space].
    inversion Hn as [|? ? Hc Hn']; subst. rewrite Hc. rewrite IH; [cbn [length]; lia|exact Hn'|cbn [length] in Hf; lia].
Qed.

Lemma clu_step_line recs k h name p : gname_ok name ->
  clu_step (recs, k, h) (name ++ 32 :: p) =
  (update_nth k (fun r => feed_line (mkRR name (rr_res r) (rr_gaps r)) (32 :: p)) (pad_recs recs (S k)), S k, count_line h (32 :: p)).
Proof.
  intros (Hne & Hns & Hl). destruct name as [|c0 nm]; [congruence|].
  unfold clu_step. cbn [app]. inversion Hns as [|? ? Hc0 _]; subst. rewrite Hc0.
  change (c0 :: nm ++ 32 :: p) with ((c0 :: nm) ++ 32 :: p).
  rewrite first_space_name by (assumption || lia). cbn [Nat.add].
  rewrite firstn_app_exact, skipn_app_exact. reflexivity.
Qed.

Lemma clu_item pre r suf h name p : gname_ok name -> rr_name r = name ->
  clu_step (pre ++ r :: suf, length pre, h) (name ++ 32 :: p) =
  (pre ++ feed_line r (32 :: p) :: suf, S (length pre), count_line h (32 :: p)).
Proof.
  intros G N. rewrite clu_step_line by exact G. rewrite pad_recs_eq, app_length. cbn [length].
  destruct (Nat.ltb_spec (length pre + S (length suf)) (S (length pre))); [lia|].
  rewrite update_nth_app. subst name. destruct r; reflexivity.
Qed.

(* read_clu has no header to declare the sequences: the first block creates the records, one per line *)
Lemma clu_creates : forall (items : list item) pre h, Forall (fun x => gname_ok (it_name x)) items ->
  fold_left clu_step (map it_line items) (pre, length pre, h) =
  fold_left clu_step (map it_line items) (pre ++ map (fun x => empty_rec (it_name x)) items, length pre, h).
Proof.
  induction items as [|x items IH]; intros pre h Hok; [cbn; rewrite app_nil_r; reflexivity|].
  inversion Hok as [|? ? Hx Hok']; subst. cbn [map fold_left app]. change (it_line x) with (it_name x ++ 32 :: it_payload x).
  rewrite (clu_item pre (empty_rec (it_name x))) by (exact Hx || reflexivity).
  rewrite clu_step_line by exact Hx. rewrite pad_recs_eq, Nat.sub_succ_l, Nat.sub_diag by lia.
  destruct (Nat.ltb_spec (length pre) (S (length pre))); [|lia]. cbn [repeat]. rewrite update_nth_app.
  specialize (IH (pre ++ [feed_line (empty_rec (it_name x)) (32 :: it_payload x)]) (count_line h (32 :: it_payload x)) Hok').
  rewrite app_length, Nat.add_1_r, <- app_assoc in IH. exact IH.
Qed.

Lemma clu_first_block (rows : list lrow) k seps h : Forall (fun row => gname_ok (fst row)) rows -> (1 <= k)%nat ->
  fold_left clu_step (body_lines rows k seps) ([], 0%nat, h) =
  fold_left clu_step (body_lines rows k seps) (map (fun row => empty_rec (fst row)) rows, 0%nat, h).
Proof.
  intros N K. destruct k as [|k]; [lia|]. unfold body_lines. cbn [seq flat_map]. unfold block_lines at 1 3.
  rewrite <- !app_assoc, !fold_left_app, (clu_creates _ [] h), (map_map (item_of 0) (fun x => empty_rec (it_name x)))
    by (rewrite Forall_map; exact N). reflexivity.
Qed.

Theorem read_clu_layout (rows : list lrow) k seps hdr lead :
  Forall (fun row => gname_ok (fst row)) rows -> Forall (fun row => length (snd row) = k) rows ->
  (forall j, seps_ok (seps j)) -> (1 <= k)%nat -> Forall sep_line lead ->
  exists h, read_clu (hdr :: lead ++ body_lines rows k seps) = Some (mkM (map layout_rec rows) h).
Proof.
  intros N P S K L.
  destruct (body_fold _ clu_step (fun r k h => (r, k, h)) clu_sep clu_item k rows seps N P S [] (repeat 0 128) (Forall_nil _))
    as (h & E).
  exists h. unfold read_clu. cbn [tl app] in *.
  rewrite fold_left_app, (seps_fold _ clu_step (fun r k h => (r, k, h)) clu_sep), clu_first_block, E by auto. reflexivity.
Qed.

Theorem msf_body_layout (rows : list lrow) k seps lead h0 :
  Forall (fun row => gname_ok (fst row)) rows -> Forall (fun row => length (snd row) = k) rows ->
  (forall j, seps_ok (seps j)) -> Forall sep_line lead ->
  exists h, fold_left msf_step (lead ++ body_lines rows k seps) (Some (map (fun row => empty_rec (fst row)) rows, 0%nat, h0)) =
            Some (map layout_rec rows, 0%nat, h).
Proof.
  intros N P S L. exact (body_fold _ msf_step (fun r k h => Some (r, k, h)) msf_sep msf_item k rows seps N P S lead h0 L).
Qed.

Lemma layout_recs (rows : list lrow) :
  Forall2 (fun r row => rr_name r = fst row /\ row_of r = norm (List.concat (snd row)) /\
                        rr_res r = filter isalpha (List.concat (snd row))) (map layout_rec rows) rows.
Proof. induction rows; constructor; [apply layout_rec_spec|assumption]. Qed.

Lemma records_of_layout (rows : list lrow) :
  records_of (map layout_rec rows) = map (fun row => (fst row, filter isalpha (List.concat (snd row)))) rows.
Proof.
  unfold records_of. rewrite map_map. apply map_ext. intros row.
  destruct (layout_rec_spec row) as (N & _ & S). rewrite N, S. reflexivity.
Qed.

(* kalign's own Clustal/MSF body is one such layout: after the name, blanks up to column max_name_len + 5, then the chunk *)
Definition kalign_layout (alnlen mx : nat) (nr : list Z * list Z) : lrow :=
  (fst nr, map (fun b => repeat space (mx + 4 - length (fst nr)) ++ chunk_of alnlen b (snd nr)) (seq 0 ((alnlen + 59) / 60))).

Lemma blocks2_layout alnlen rows : Forall (row_ok alnlen (max_name_len rows)) rows ->
  blocks2 alnlen rows = body_lines (map (kalign_layout alnlen (max_name_len rows)) rows) ((alnlen + 59) / 60) (fun _ => [[]; []]).
Proof.
  intros Hok. unfold blocks2, body_lines. rewrite !flat_map_concat_map. f_equal. apply map_ext_in. intros b Hb. apply in_seq in Hb.
  unfold block_lines. f_equal. rewrite !map_map. apply map_ext_in. intros nr Hin. rewrite Forall_forall in Hok.
  rewrite (line_shape _ _ b nr (Hok nr Hin)). unfold it_line, item_of, it_name, it_payload, kalign_layout. cbn [fst snd].
  set (f := fun b => repeat space _ ++ chunk_of alnlen b (snd nr)).
  rewrite (nth_indep _ [] (f 0%nat)) by (rewrite map_length, seq_length; lia).
  rewrite (map_nth f), seq_nth by lia. reflexivity.
Qed.

Lemma kalign_layout_ok alnlen rows : Forall (row_ok alnlen (max_name_len rows)) rows ->
  Forall (fun row : lrow => gname_ok (fst row)) (map (kalign_layout alnlen (max_name_len rows)) rows) /\
  Forall (fun row : lrow => length (snd row) = ((alnlen + 59) / 60)%nat) (map (kalign_layout alnlen (max_name_len rows)) rows).
Proof.
  intros Hok. rewrite !Forall_map. split; [eapply Forall_impl; [|exact Hok]|apply Forall_forall]; intros nr H; cbn [kalign_layout fst snd].
  - destruct H as (Hn & _ & _ & L & _). split; [apply Hn|split; [apply name_ok_nospace, Hn|lia]].
  - rewrite map_length, seq_length. reflexivity.
Qed.

Lemma blank_seps : seps_ok [[]; []] /\ Forall sep_line [[]].
Proof. repeat split; repeat constructor; left; reflexivity. Qed.

Lemma kalign_layout_row alnlen mx nr : good_row (snd nr) -> length (snd nr) = alnlen ->
  norm (List.concat (snd (kalign_layout alnlen mx nr))) = snd nr.
Proof.
  intros G L. cbn [kalign_layout snd]. etransitivity; [|exact (blocks_cover_row alnlen (snd nr) L)].
  induction (seq 0 ((alnlen + 59) / 60)) as [|b bs IH]; [reflexivity|].
  cbn [map List.concat]. rewrite !norm_app, norm_spaces, norm_rowchars, IH by (apply chunk_rowchars; exact G). reflexivity.
Qed.

Lemma kalign_layout_read alnlen mx rows : Forall (row_ok alnlen mx) rows ->
  let recs := map layout_rec (map (kalign_layout alnlen mx) rows) in
  rows_of recs = rows /\ records_of recs = residues_of rows.
Proof.
  intros H. cbv zeta. rewrite map_map. apply rows_records_of. intros nr Hin.
  rewrite Forall_forall in H. destruct (H nr Hin) as (_ & G & L & _).
  destruct (layout_rec_spec (kalign_layout alnlen mx nr)) as (N & R & S).
  rewrite N, R, S, <- filter_norm, kalign_layout_row by assumption. auto.
Qed.

(* C06, Clustal at file level *)
Theorem read_one_written_clu version rows alnlen :
  clean_line version ->
  Forall (fun nr => name_ok (fst nr) /\ good_row (snd nr) /\ length (snd nr) = alnlen /\ (length (fst nr) <= 200)%nat) rows ->
  (1 <= alnlen)%nat ->
  exists m, read_one (write_clu version alnlen rows) = Some (Some m) /\ rows_of (m_recs m) = rows /\
            records_of (m_recs m) = residues_of rows.
Proof.
  intros Hv Hall Hlen. pose proof (rows_ok_mx alnlen rows Hall) as Hok.
  destruct (clu_header_facts version Hv) as (Hc & Hl & Hh). destruct (kalign_layout_ok alnlen rows Hok) as [N P].
  destruct (read_clu_layout _ _ (fun _ => [[]; []]) (clu_header version) [[]] N P (fun _ => proj1 blank_seps)) as (h & Hr);
    [pose proof (nblocks_bound alnlen); lia|apply blank_seps|].
  rewrite <- blocks2_layout in Hr by exact Hok.
  eexists (mkM _ h). split; [|apply kalign_layout_read, Hok].
  unfold write_clu. fold (clu_header version).
  change (clu_header version :: [] :: blocks alnlen rows) with ([clu_header version; []] ++ blocks alnlen rows).
  rewrite unlines_blocks2. apply read_one_unlines.
  - apply Forall_app. split; [constructor; [exact Hc|repeat constructor]|]. apply Forall_blocks2; [constructor|].
    intros b nr Hin. apply line_clean, (proj1 (Forall_forall _ _) Hok), Hin.
  - exact Hl.
  - right. right. split; [apply detect_clu, Hh|exact Hr].
Qed.

(* C06, MSF at file level.  Format sniffing looks for Clustal markers first, in the first 100 lines *)
Theorem read_one_written_msf basename date protein rows alnlen :
  title_inert (msf_title basename date protein alnlen rows) -> hint_clu (msf_title basename date protein alnlen rows) = false ->
  msf_rows_ok alnlen rows ->
  exists m, read_one (write_msf basename date protein alnlen rows) = Some (Some m) /\ rows_of (m_recs m) = rows /\
            records_of (m_recs m) = residues_of rows.
Proof.
  intros Ht Hc Hrows. destruct (msf_rows_ok_mx alnlen rows Hrows) as [_ Hok]. destruct (kalign_layout_ok alnlen rows Hok) as [N P].
  destruct (msf_body_layout _ _ (fun _ => [[]; []]) [[]] (repeat 0 128) N P (fun _ => proj1 blank_seps) (proj2 blank_seps)) as (h & Hb).
  rewrite <- blocks2_layout, map_map in Hb by exact Hok.
  eexists (mkM _ h). split; [|apply kalign_layout_read, Hok].
  rewrite write_msf_lines. apply read_one_unlines.
  - apply msf_lines_clean; [apply Ht|exact Hrows].
  - destruct protein; discriminate.
  - right. left. split.
    + apply detect_msf; [apply msf_lines_no_clu; assumption|destruct protein; vm_compute; reflexivity].
    + unfold read_msf. rewrite msf_header_written by assumption. cbn [app] in Hb. cbn [kalign_layout fst] in Hb. rewrite Hb. reflexivity.
Qed.

(* two inputs, each read with success and detected as the same (defined) kind: the records of the first followed by
   the records of the second *)
Lemma read_two_inputs f1 f2 m1 m2 : read_one f1 = Some (Some m1) -> read_one f2 = Some (Some m2) ->
  (2 <= length (m_recs m1))%nat -> biotype_of ALN_BIOTYPE_UNDEF (m_freq m1) <> ALN_BIOTYPE_UNDEF ->
  biotype_of ALN_BIOTYPE_UNDEF (m_freq m2) = biotype_of ALN_BIOTYPE_UNDEF (m_freq m1) ->
  exists m, read_inputs [f1; f2] = ROk m /\ i_recs m = m_recs m1 ++ m_recs m2.
Proof.
  intros R1 R2 L1 B1 B2. unfold read_inputs. cbn [fold_left]. unfold read_step at 2. rewrite R1.
  destruct (Nat.ltb_spec (length (m_recs m1)) 2) as [|_]; [lia|].
  unfold read_step. rewrite R2. cbn [i_biotype i_recs i_freq].
  rewrite B2. destruct (Z.eqb_spec (biotype_of ALN_BIOTYPE_UNDEF (m_freq m1)) ALN_BIOTYPE_UNDEF) as [E|_]; [contradiction|]. cbn [negb andb].
  rewrite Z.eqb_refl. cbn [negb andb].
  rewrite app_length. destruct (Nat.ltb_spec (length (m_recs m1) + length (m_recs m2)) 2) as [|_]; [lia|].
  eexists. split; reflexivity.
Qed.
