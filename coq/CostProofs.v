(* C07: a necessary condition of Hirschberg's optimality that is about the kernel TEXT, for every arithmetic: the meetup
   must charge a gap that crosses the middle row exactly what the two passes charge for the same step - in particular it
   must use the terminal gap extension at exactly the columns where the passes do.  Here: where a pass uses it
   (row_cells_gb, pass_terminal_col) and where the meetup's scan does (meet_terminal_col); that the two agree is
   Properties_C07.  (The defect repaired by b57ad5d was a violation of this: the meetup used the terminal extension at
   every column of a sub-problem starting at column 0.) *)
From Coq Require Import ZArith List Lia.
From KV Require Import Kernels.
Import ListNotations.
Local Open Scope Z_scope.

Section PassCosts.
Variable A : alg.
Variables R C : Type.
Variable K : costs A R C.
Notation "x +. y" := (add A x y) (at level 50, left associativity).

(* the gb update of one cell (a row consumed without a column), in its two costings *)
Definition gb_update (terminal : bool) (o : cell A) (r : R) : T A :=
  if terminal then mx A (c_gb A o) (c_a A o) +. k_gb_text A R C K r
  else mx A (c_gb A o +. k_gb_ext A R C K r) (c_a A o +. k_gb_open A R C K r).

(* which cells of a row are costed as terminal: the first one of a pass that starts at the left border, the last one of a
   pass that ends at the right border *)
Definition pass_terminal (fi li : bool) (n j : nat) : bool := ((j =? 0)%nat && negb fi) || ((j =? n)%nat && negb li).

Lemma row_cells_cons li r pa pga pgb xa xga o o2 old' c c2 cols' :
  row_cells A R C K li r pa pga pgb xa xga (o :: o2 :: old') (c :: c2 :: cols') =
  (let na := k_match A R C K r c (mx3 A pa (pga +. k_ga_to_a A R C K c) (pgb +. k_gb_to_a A R C K r)) in
   let nga := mx A (xga +. k_ga_ext A R C K c) (xa +. k_ga_open A R C K c) in
   let ngb := mx A (c_gb A o +. k_gb_ext A R C K r) (c_a A o +. k_gb_open A R C K r) in
   (na, nga, ngb) :: row_cells A R C K li r (c_a A o) (c_ga A o) (c_gb A o) na nga (o2 :: old') (c2 :: cols')).
Proof. reflexivity. Qed.

Lemma row_cells_gb : forall cols old li r pa pga pgb xa xga j, length old = length cols -> (j < length cols)%nat ->
  c_gb A (nth j (row_cells A R C K li r pa pga pgb xa xga old cols) (dead A)) =
  gb_update ((S j =? length cols)%nat && negb li) (nth j old (dead A)) r.
Proof.
  induction cols as [|c cols IH]; intros old li r pa pga pgb xa xga j L J; [cbn [length] in J; lia|].
  destruct old as [|o old]; [discriminate|]. cbn [length] in L. injection L as L.
  destruct cols as [|c2 cols'].
  - destruct old; [|discriminate]. assert (j = 0%nat) as -> by (cbn [length] in J; lia).
    cbn [row_cells nth length Nat.eqb andb]. unfold gb_update, c_gb. cbn [snd]. destruct li; reflexivity.
  - destruct old as [|o2 old']; [discriminate|]. rewrite row_cells_cons. cbv zeta. destruct j as [|j].
    + cbn [nth length]. unfold gb_update, c_gb. cbn [snd Nat.eqb andb]. reflexivity.
    + cbn [nth]. rewrite (IH (o2 :: old')) by (cbn [length] in *; lia). cbn [length]. reflexivity.
Qed.

End PassCosts.

(* cell j of the array of a sub-problem is column startb + j; the flags the three kernels pass are
   first_internal = (startb <> 0), last_internal = (endb <> len_b) for the forward pass *)
Definition pass_terminal_col (startb endb len_b i : Z) : bool :=
  pass_terminal (negb (startb =? 0)) (negb (endb =? len_b)) (Z.to_nat (endb - startb)) (Z.to_nat (i - startb)).

(* what the meetup uses for the gb -> gb candidate at column i (meet_scan: meet_col (i =? 0) below endb, meet_last at endb) *)
Definition meet_terminal_col (endb len_b i : Z) : bool := if i <? endb then (i =? 0) else (endb =? len_b).

(* the condition the C text used before fix b57ad5d - "the sub-problem starts at column 0" - is NOT the passes' condition *)
Example old_meetup_condition_refuted :
  exists startb endb len_b i, 0 <= startb /\ startb < endb /\ endb <= len_b /\ startb <= i < endb /\
    (startb =? 0) <> pass_terminal_col startb endb len_b i.
Proof. exists 0, 2, 2, 1. repeat split; try lia. vm_compute. discriminate. Qed.
