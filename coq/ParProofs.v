(* C02: the static join check is sound; schedules of independent series-parallel programs agree; the guide tree
   unfolds to such a program (Par.v). *)
From Coq Require Import List String Bool Arith Permutation FunctionalExtensionality.
From KV Require Import ListFacts Generated.Omp Par.
Import ListNotations.

Section CheckProofs.
Variable critical : string -> bool.
Notation trace_ok := (trace_ok critical).
Notation absrun := (absrun critical).

Lemma trace_ok_app : forall t1 t2 c, trace_ok c (t1 ++ t2) = trace_ok c t1 && trace_ok (trace_out c t1) t2.
Proof.
  induction t1 as [|e t1 IH]; intros t2 c; simpl; [reflexivity|].
  destruct e; auto.
  - destruct (critical f && c); [reflexivity|apply IH].
  - destruct c; [reflexivity|apply IH].
Qed.

Lemma trace_out_app : forall t1 t2 c, trace_out c (t1 ++ t2) = trace_out (trace_out c t1) t2.
Proof. induction t1 as [|e t1 IH]; intros t2 c; simpl; [reflexivity|]. destruct e; auto. Qed.

Definition le (a b : bool) : Prop := a = true -> b = true.
Lemma le_refl a : le a a. Proof. intro H; exact H. Qed.
Lemma le_orb_l a b c : le a b -> le a (b || c). Proof. intros H E. rewrite (H E). reflexivity. Qed.
Lemma le_orb_r a b c : le a c -> le a (b || c). Proof. intros H E. rewrite (H E). apply orb_true_r. Qed.

(* every trace of the body l, monitored from any concrete flag below [out], is accepted and (when the body
   does not return) ends with a concrete flag below [o] *)
Definition accepts (l : list item) (out o : bool) : Prop :=
  forall tr b, runs l tr b -> forall oc, le oc out ->
  trace_ok oc tr = true /\ (b = false -> le (trace_out oc tr) o).

Lemma accepts_app t1 t2 b oc m o :
  trace_ok oc t1 = true /\ (false = false -> le (trace_out oc t1) m) ->
  (forall c, le c m -> trace_ok c t2 = true /\ (b = false -> le (trace_out c t2) o)) ->
  trace_ok oc (t1 ++ t2) = true /\ (b = false -> le (trace_out oc (t1 ++ t2)) o).
Proof.
  intros [K1 K2] H. destruct (H _ (K2 eq_refl)) as [K3 K4]. rewrite trace_ok_app, trace_out_app, K1, K3. auto.
Qed.

Lemma accepts_maybe body r out o1 o :
  accepts body out o1 -> accepts r (out || o1) o -> accepts (IMaybe body :: r) out o.
Proof.
  intros Hb Hr tr b R oc L.
  inversion R as [ | | | | | | |? ? ? ? R2|? ? t1 t2 ? R1 R2|? ? ? R1| | | ]; subst.
  - apply (Hr _ _ R2). apply le_orb_l, L.
  - apply (accepts_app _ _ _ _ o1); [exact (Hb _ _ R1 oc L)|]. intros c Lc. apply (Hr _ _ R2), le_orb_r, Lc.
  - split; [exact (proj1 (Hb _ _ R1 oc L))|intro H; discriminate].
Qed.

Lemma accepts_loop body r inv o : accepts body inv inv -> accepts r inv o -> accepts (ILoop body :: r) inv o.
Proof.
  intros Hb Hr tr b R. remember (ILoop body :: r) as prog eqn:EP.
  induction R; try discriminate; inversion EP; subst; intros oc L.
  - exact (Hr _ _ R oc L).
  - apply (accepts_app _ _ _ _ inv); [exact (Hb _ _ R1 oc L)|]. exact (IHR2 eq_refl).
  - split; [exact (proj1 (Hb _ _ R oc L))|intro H; discriminate].
Qed.

Lemma absrun_sound : forall fuel l out o, absrun fuel out l = Some o -> accepts l out o.
Proof.
  induction fuel as [|fu IH]; intros l out o A; [discriminate|].
  destruct l as [|it r]; cbn [Par.absrun] in A.
  - intros tr b R oc L. inversion R; subst. inversion A; subst. split; [reflexivity|intros _; exact L].
  - destruct it as [f| |f| |body|body|s|s].
    + intros tr b R oc L. inversion R; subst. simpl. eapply IH; eauto. intros _; reflexivity.
    + intros tr b R oc L. inversion R; subst. simpl. eapply IH; eauto. intro H; discriminate.
    + intros tr b R oc L. inversion R; subst. simpl.
      destruct (critical f && out) eqn:C; [discriminate|].
      assert (critical f && oc = false) as ->.
      { destruct (critical f); [|reflexivity]. simpl in *. destruct oc; [rewrite (L eq_refl) in C; discriminate|reflexivity]. }
      eapply IH; eauto.
    + intros tr b R oc L. inversion R; subst. destruct out; [discriminate|]. inversion A; subst. simpl.
      destruct oc; [specialize (L eq_refl); discriminate|]. split; [reflexivity|intro H; discriminate].
    + destruct (absrun fu out body) as [o1|] eqn:A1; [|discriminate].
      exact (accepts_maybe _ _ _ _ _ (IH _ _ _ A1) (IH _ _ _ A)).
    + (* loop: out || o1 || o2 is an invariant of the body, because a third abstract iteration would start
         from a flag already tried *)
      destruct (absrun fu out body) as [o1|] eqn:A1; [|discriminate].
      destruct (absrun fu (out || o1) body) as [o2|] eqn:A2; [|discriminate].
      set (inv := out || o1 || o2) in *.
      assert (STEP : accepts body inv inv).
      { destruct inv eqn:I.
        - destruct (out || o1) eqn:E.
          + intros t rb Rb c _. split; [exact (proj1 (IH _ _ _ A2 _ _ Rb c (fun _ => eq_refl)))|]. intros _ _. reflexivity.
          + apply orb_false_iff in E as [E1 E2]. subst out o1. simpl in A2. rewrite A1 in A2. inversion A2; subst o2.
            unfold inv in I. discriminate.
        - unfold inv in I. apply orb_false_iff in I as [I1 I3]. apply orb_false_iff in I1 as [I1 I2]. subst out o1 o2.
          exact (IH _ _ _ A1). }
      intros tr b R oc L. apply (accepts_loop _ _ _ _ STEP (IH _ _ _ A) _ _ R).
      unfold inv. apply le_orb_l, le_orb_l, L.
    + intros tr b R oc L. inversion R; subst. eapply IH; eauto.
    + discriminate.
Qed.

End CheckProofs.

Section SPProofs.
Variable act state : Type.
Variable exec : act -> state -> state.
Variable indep : act -> act -> Prop.
Hypothesis indep_commute : forall a b s, indep a b -> exec b (exec a s) = exec a (exec b s).
Notation exec_list := (exec_list act state exec).

Lemma exec_list_app l1 l2 s : exec_list (l1 ++ l2) s = exec_list l2 (exec_list l1 s).
Proof. unfold Par.exec_list. apply fold_left_app. Qed.

Lemma exec_list_cons a l s : exec_list (a :: l) s = exec_list l (exec a s).
Proof. reflexivity. Qed.

Lemma exec_commute_list : forall l a s, (forall b, In b l -> indep b a) ->
  exec a (exec_list l s) = exec_list l (exec a s).
Proof.
  induction l as [|b l IH]; intros a s H; [reflexivity|].
  rewrite !exec_list_cons, IH, (indep_commute b a); auto using in_eq, in_cons.
Qed.

Lemma shuffle_exec : forall l r m, shuffle act l r m ->
  (forall a b, In a l -> In b r -> indep a b) ->
  forall s, exec_list m s = exec_list (l ++ r) s.
Proof.
  intros l r m Sh. induction Sh as [|a l r m Sh IH|a l r m Sh IH]; intros I s.
  - reflexivity.
  - cbn [app]. rewrite !exec_list_cons. apply IH. auto using in_cons.
  - (* a from the right branch runs first: commute it behind l *)
    rewrite exec_list_cons, IH, !exec_list_app, exec_list_cons by auto using in_cons.
    rewrite exec_commute_list by auto using in_eq. reflexivity.
Qed.

Lemma shuffle_perm : forall l r m, shuffle act l r m -> Permutation m (l ++ r).
Proof.
  intros l r m Sh. induction Sh; simpl.
  - constructor.
  - constructor. assumption.
  - etransitivity; [constructor; eassumption|]. apply Permutation_middle.
Qed.

Lemma lin_perm : forall t l, lin act t l -> Permutation l (flatten act t).
Proof.
  intros t l L. induction L; simpl.
  - constructor.
  - constructor. constructor.
  - apply Permutation_app; assumption.
  - etransitivity; [eapply shuffle_perm; eassumption|]. apply Permutation_app; assumption.
Qed.

Theorem sp_determinism : forall t, par_independent act indep t ->
  forall l, lin act t l -> forall s, exec_list l s = exec_list (flatten act t) s.
Proof.
  induction t as [|a|x IHx y IHy|x IHx y IHy]; intros P l L s; inversion L; subst; simpl in *.
  - reflexivity.
  - reflexivity.
  - destruct P as [Px Py]. rewrite !exec_list_app. rewrite (IHx Px _ H1). apply IHy; assumption.
  - destruct P as (Px & Py & I).
    rewrite (shuffle_exec _ _ _ H4).
    + rewrite !exec_list_app. rewrite (IHx Px _ H1). apply IHy; assumption.
    + intros a b Ha Hb. apply I.
      * eapply Permutation_in; [apply lin_perm; eassumption|assumption].
      * eapply Permutation_in; [apply lin_perm; eassumption|assumption].
Qed.
End SPProofs.

Section TreeProofs.
Variable cell : Type.
Variable combine : cell -> cell -> cell.
Notation exec_merge := (exec_merge cell combine).

Lemma indep_merge_commute : forall x y (s : store cell), indep_merge x y ->
  exec_merge y (exec_merge x s) = exec_merge x (exec_merge y s).
Proof.
  intros x y s (N1 & N2 & N3 & N4 & N5). apply functional_extensionality. intro k.
  unfold Par.exec_merge.
  destruct (Nat.eqb_spec k (m_c y)) as [Ey|Ey]; destruct (Nat.eqb_spec k (m_c x)) as [Ex|Ex].
  - exfalso. apply N1. transitivity k; [symmetry; assumption|assumption].
  - subst k. assert (Nat.eqb (m_a y) (m_c x) = false) as -> by (apply Nat.eqb_neq; congruence).
    assert (Nat.eqb (m_b y) (m_c x) = false) as -> by (apply Nat.eqb_neq; congruence). reflexivity.
  - subst k. assert (Nat.eqb (m_a x) (m_c y) = false) as -> by (apply Nat.eqb_neq; congruence).
    assert (Nat.eqb (m_b x) (m_c y) = false) as -> by (apply Nat.eqb_neq; congruence). reflexivity.
  - reflexivity.
Qed.

Lemma root_in_nodes t : In (root_id t) (nodes t).
Proof. destruct t; simpl; auto. Qed.

Lemma merges_inside : forall t m, In m (flatten merge (unfold t)) ->
  In (m_a m) (nodes t) /\ In (m_b m) (nodes t) /\ In (m_c m) (nodes t).
Proof.
  induction t as [i|c l IHl r IHr]; intros m H; simpl in H; [contradiction|].
  apply in_app_or in H as [H|H].
  - apply in_app_or in H as [H|H]; [destruct (IHl _ H) as (A & B & C)|destruct (IHr _ H) as (A & B & C)];
      simpl; repeat split; right; apply in_or_app; auto.
  - destruct H as [<-|[]]. simpl. repeat split; [right; apply in_or_app; left; apply root_in_nodes|
                                                 right; apply in_or_app; right; apply root_in_nodes|left; reflexivity].
Qed.

Theorem unfold_independent : forall t, NoDup (nodes t) -> par_independent merge indep_merge (unfold t).
Proof.
  induction t as [i|c l IHl r IHr]; intro N; simpl; [exact I|].
  inversion N as [|? ? Nc N']; subst. apply NoDup_app_iff in N' as (Nl & Nr & D).
  split; [|exact I]. split; [exact (IHl Nl)|]. split; [exact (IHr Nr)|].
  intros a b Ha Hb.
  destruct (merges_inside _ _ Ha) as (A1 & A2 & A3). destruct (merges_inside _ _ Hb) as (B1 & B2 & B3).
  unfold indep_merge. repeat split; intro E.
  - apply (D (m_c a)); [assumption|rewrite E; assumption].
  - apply (D (m_c a)); [assumption|rewrite E; assumption].
  - apply (D (m_c a)); [assumption|rewrite E; assumption].
  - apply (D (m_c b)); [rewrite E; assumption|assumption].
  - apply (D (m_c b)); [rewrite E; assumption|assumption].
Qed.

End TreeProofs.
