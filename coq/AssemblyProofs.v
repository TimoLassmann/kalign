(* The whole progressive assembly: invariants of a valid run (coverage, equal widths, no
   all-gap column), the boolean validity checker and its soundness, the initial state. *)
From KV Require Import ListFacts Base Weave WeaveProofs WeaveCheck.
Local Open Scope nat_scope.

(* every column of the merged block comes from one column of a (the same for every row of a) or from one
   column of b: the only place where it matters that an op is never a gap in both *)
Lemma weave_col : forall ops j, j < length ops -> cnt is_NONE ops = 0 ->
  (exists ja, ja < cnt is_M ops + cnt is_GB ops /\
     forall row, length row = cnt is_M ops + cnt is_GB ops -> nth j (weave_a ops row) dash = nth ja row dash) \/
  (exists jb, jb < cnt is_M ops + cnt is_GA ops /\
     forall row, length row = cnt is_M ops + cnt is_GA ops -> nth j (weave_b ops row) dash = nth jb row dash).
Proof.
  unfold cnt.
  induction ops as [|o ops IH]; intros j Hj HN; [simpl in Hj; lia|].
  destruct o; cbn [filter is_M is_GA is_GB is_NONE length] in *; try lia.
  - destruct j as [|j].
    + left. exists 0. split; [lia|]. intros [|x r] Hr; [simpl in Hr; lia|reflexivity].
    + destruct (IH j ltac:(lia) HN) as [(ja & Hja & Ha)|(jb & Hjb & Hb)].
      * left. exists (S ja). split; [lia|]. intros [|x r] Hr; [simpl in Hr; lia|].
        cbn [weave_a nth]. apply Ha. simpl in Hr. lia.
      * right. exists (S jb). split; [lia|]. intros [|x r] Hr; [simpl in Hr; lia|].
        cbn [weave_b nth]. apply Hb. simpl in Hr. lia.
  - (* gap in a: the column comes from b *)
    destruct j as [|j].
    + right. exists 0. split; [lia|]. intros [|x r] Hr; [simpl in Hr; lia|reflexivity].
    + destruct (IH j ltac:(lia) HN) as [(ja & Hja & Ha)|(jb & Hjb & Hb)].
      * left. exists ja. split; [lia|]. intros row Hr. cbn [weave_a nth]. apply Ha. lia.
      * right. exists (S jb). split; [lia|]. intros [|x r] Hr; [simpl in Hr; lia|].
        cbn [weave_b nth]. apply Hb. simpl in Hr. lia.
  - (* gap in b: the column comes from a *)
    destruct j as [|j].
    + left. exists 0. split; [lia|]. intros [|x r] Hr; [simpl in Hr; lia|reflexivity].
    + destruct (IH j ltac:(lia) HN) as [(ja & Hja & Ha)|(jb & Hjb & Hb)].
      * left. exists (S ja). split; [lia|]. intros [|x r] Hr; [simpl in Hr; lia|].
        cbn [weave_a nth]. apply Ha. simpl in Hr. lia.
      * right. exists jb. split; [lia|]. intros row Hr. cbn [weave_b nth]. apply Hb. lia.
Qed.

Section Run.
Variable seqs : list (list Z).
Notation n := (length seqs).

Definition no_allgap (st : wstate) (x w : nat) : Prop :=
  forall j, j < w -> exists i, In i (members st x) /\ nth j (row_of seqs st i) dash <> dash.

Record Inv2 (st : wstate) (act : list nat) : Prop := {
  inv2_inv : Inv seqs st act;
  inv2_cover : forall i, i < n -> exists x, In x act /\ In i (members st x);
  inv2_width : forall x, In x act -> exists w, width_ok seqs st x w /\ no_allgap st x w
}.

Lemma width_ok_unique st x w w' : width_ok seqs st x w -> width_ok seqs st x w' -> members st x <> [] -> w = w'.
Proof.
  intros W W' Hne. destruct (members st x) as [|i l] eqn:E; [contradiction|].
  rewrite <- (W i), <- (W' i); rewrite ?E; simpl; auto.
Qed.

Lemma merge_step_inv2 st act a b c ops wa wb :
  Inv2 st act -> step_ok seqs st act a b c ops wa wb -> members st a <> [] -> members st b <> [] ->
  Inv2 (merge_step st a b c ops) (act_after act a b c).
Proof.
  intros [HI Hcov Hw] Hs Hna Hnb. pose proof Hs as [Ha Hb Hab Hc Hcl Wa Wb (F1 & F2 & F3)].
  constructor; [exact (merge_step_inv seqs _ _ _ _ _ _ _ _ HI Hs)| |].
  - intros j Hj. destruct (Hcov j Hj) as (x & Hx & Hjx).
    destruct (Nat.eq_dec x a) as [->|Hxa]; [|destruct (Nat.eq_dec x b) as [->|Hxb]];
      [exists c|exists c|exists x]; (split; [apply in_act_after; auto|]).
    + apply members_step_c_in; auto.
    + apply members_step_c_in; auto.
    + rewrite members_step_other; [exact Hjx|]. intros ->. contradiction.
  - intros x Hx. apply in_act_after in Hx as [->|(Hx & Hxa & Hxb)].
    + exists (length ops). split; [exact (merge_step_width seqs _ _ _ _ _ _ _ _ HI Hs)|].
      intros j Hj.
      destruct (Hw a Ha) as (wa' & Wa' & NGa). rewrite (width_ok_unique st a wa' wa Wa' Wa Hna) in NGa.
      destruct (Hw b Hb) as (wb' & Wb' & NGb). rewrite (width_ok_unique st b wb' wb Wb' Wb Hnb) in NGb.
      destruct (weave_col (map op_kind ops) j ltac:(rewrite map_length; exact Hj) F3)
        as [(ja & Hja & Hcol)|(jb & Hjb & Hcol)].
      * destruct (NGa ja ltac:(lia)) as (i & Hi & Hne).
        exists i. split; [apply members_step_c_in; auto|].
        rewrite (merge_row_a seqs _ _ _ _ _ _ _ _ HI Hs i Hi), Hcol; [exact Hne|]. rewrite (Wa i Hi). lia.
      * destruct (NGb jb ltac:(lia)) as (i & Hi & Hne).
        exists i. split; [apply members_step_c_in; auto|].
        rewrite (merge_row_b seqs _ _ _ _ _ _ _ _ HI Hs i Hi), Hcol; [exact Hne|]. rewrite (Wb i Hi). lia.
    + destruct (Hw x Hx) as (w & Wx & NGx). exists w.
      assert (E : members (merge_step st a b c ops) x = members st x)
        by (apply members_step_other; intros ->; contradiction).
      split.
      * intros i Hi. rewrite E in Hi. rewrite (merge_row_other seqs _ _ _ _ _ _ _ _ HI Hs x i) by assumption. exact (Wx i Hi).
      * intros j Hj. destruct (NGx j Hj) as (i & Hi & Hne). exists i.
        rewrite E, (merge_row_other seqs _ _ _ _ _ _ _ _ HI Hs x i) by assumption. auto.
Qed.

Definition width_of (st : wstate) (x : nat) : nat :=
  match members st x with i :: _ => length (row_of seqs st i) | [] => 0 end.
Definition widths_okb (st : wstate) (x : nat) : bool :=
  forallb (fun i => Nat.eqb (length (row_of seqs st i)) (width_of st x)) (members st x).

Fixpoint valid_runb (st : wstate) (act : list nat) (tasks : list task) : bool :=
  match tasks with
  | [] => true
  | (a, b, c, ops) :: rest =>
    memb a act && memb b act && negb (Nat.eqb a b) && negb (memb c act) && Nat.ltb c (length (w_sip st)) &&
    widths_okb st a && widths_okb st b &&
    negb (Nat.eqb (length (members st a)) 0) && negb (Nat.eqb (length (members st b)) 0) &&
    ops_fitb (map op_kind ops) (width_of st a) (width_of st b) &&
    valid_runb (merge_step st a b c ops) (act_after act a b c) rest
  end.

Fixpoint act_final (act : list nat) (tasks : list task) : list nat :=
  match tasks with
  | [] => act
  | (a, b, c, _) :: rest => act_final (act_after act a b c) rest
  end.

Lemma widths_okb_ok st x : widths_okb st x = true <-> width_ok seqs st x (width_of st x).
Proof.
  unfold widths_okb, width_ok. rewrite forallb_forall.
  split; intros H i Hi; [apply Nat.eqb_eq|apply Nat.eqb_eq]; apply H, Hi.
Qed.

Lemma valid_runb_cons st act a b c ops rest :
  valid_runb st act ((a, b, c, ops) :: rest) = true <->
  step_ok seqs st act a b c ops (width_of st a) (width_of st b) /\ members st a <> [] /\ members st b <> [] /\
  valid_runb (merge_step st a b c ops) (act_after act a b c) rest = true.
Proof.
  cbn [valid_runb].
  rewrite !andb_true_iff, !negb_true_iff, !Nat.eqb_neq, <- not_true_iff_false, !memb_In, Nat.ltb_lt,
    !length_zero_iff_nil, !widths_okb_ok, ops_fitb_ok.
  split; [intros ?; split; [constructor|]; tauto|intros ([] & ? & ? & ?); tauto].
Qed.

Lemma valid_runb_ok : forall tasks st act, valid_runb st act tasks = true -> valid_run seqs st act tasks.
Proof.
  induction tasks as [|[[[a b] c] ops] rest IH]; intros st act H; [constructor|].
  apply valid_runb_cons in H as ([] & _ & _ & Hr). econstructor; eauto.
Qed.

Lemma valid_runb_inv2 : forall tasks st act,
  Inv2 st act -> valid_runb st act tasks = true ->
  Inv2 (run_from st tasks) (act_final act tasks).
Proof.
  induction tasks as [|[[[a b] c] ops] rest IH]; intros st act HI H; [exact HI|].
  apply valid_runb_cons in H as (Hs & Hna & Hnb & Hr).
  exact (IH _ _ (merge_step_inv2 _ _ _ _ _ _ _ _ HI Hs Hna Hnb) Hr).
Qed.

Hypothesis seqs_nodash : Forall (Forall (fun c => c <> dash)) seqs.

Definition st0 : wstate := init_wstate (map (@length Z) seqs).

Lemma expand_zero : forall res, expand (repeat 0 (S (length res))) res = res.
Proof.
  induction res as [|r res IH]; [reflexivity|].
  change (repeat 0 (S (length (r :: res)))) with (0 :: repeat 0 (S (length res))).
  rewrite expand_cons_cons, IH. reflexivity.
Qed.

Lemma st0_gaps_nth i : i < n -> nth i (w_gaps st0) [] = repeat 0 (S (length (nth i seqs []))).
Proof.
  intro Hi. unfold st0, init_wstate. cbn [w_gaps].
  rewrite (nth_map_in _ _ i 0) by (rewrite map_length; exact Hi).
  rewrite (nth_map_in _ _ i []) by exact Hi. reflexivity.
Qed.

Lemma st0_members x : x < n -> members st0 x = [x].
Proof.
  intro Hx. unfold members, st0, init_wstate. cbn [w_sip]. rewrite map_length.
  rewrite app_nth1 by (rewrite map_length, seq_length; exact Hx).
  rewrite (nth_map_in _ _ x 0) by (rewrite seq_length; exact Hx).
  rewrite seq_nth by exact Hx. reflexivity.
Qed.

Lemma st0_row i : i < n -> row_of seqs st0 i = nth i seqs [].
Proof. intro Hi. unfold row_of. rewrite st0_gaps_nth by exact Hi. apply expand_zero. Qed.

Lemma st0_sip_length : length (w_sip st0) = n + (n - 1).
Proof. unfold st0, init_wstate. cbn [w_sip]. rewrite app_length, !map_length, seq_length, repeat_length. reflexivity. Qed.

Lemma st0_inv2 : Inv2 st0 (seq 0 n).
Proof.
  constructor; [constructor|..].
  - unfold st0, init_wstate. cbn [w_gaps]. rewrite !map_length. reflexivity.
  - intros i Hi. rewrite st0_gaps_nth by exact Hi. apply repeat_length.
  - intros x i Hx Hin. apply in_seq in Hx. rewrite st0_members in Hin by lia.
    destruct Hin as [<-|[]]. lia.
  - intros x y i Hx Hy Hix Hiy. apply in_seq in Hx, Hy.
    rewrite st0_members in Hix, Hiy by lia.
    destruct Hix as [<-|[]]. destruct Hiy as [<-|[]]. reflexivity.
  - intros i Hi. exists i. split; [apply in_seq; lia|]. rewrite st0_members by exact Hi. simpl; auto.
  - intros x Hx. apply in_seq in Hx. exists (length (nth x seqs [])). split.
    + intros i Hin. rewrite st0_members in Hin by lia. destruct Hin as [<-|[]].
      rewrite st0_row by lia. reflexivity.
    + intros j Hj. exists x. split; [rewrite st0_members by lia; simpl; auto|].
      rewrite st0_row by lia.
      rewrite Forall_forall in seqs_nodash.
      assert (In (nth x seqs []) seqs) as Hin by (apply nth_In; lia).
      specialize (seqs_nodash _ Hin). rewrite Forall_forall in seqs_nodash.
      apply seqs_nodash. apply nth_In. exact Hj.
Qed.

(* C01, assembly layer.  For every task list that is valid for the evolving state (any binary
   tree in any child-before-parent order, any fitting ops): every row keeps exactly its residues;
   and when a single group remains, all rows have one length and no column is all gaps. *)
Theorem assembly_integrity : forall tasks,
  valid_runb st0 (seq 0 n) tasks = true ->
  let final := run_from st0 tasks in
  (forall i, i < n -> degap (row_of seqs final i) = nth i seqs []) /\
  (forall r, act_final (seq 0 n) tasks = [r] ->
     exists w, (forall i, i < n -> length (row_of seqs final i) = w) /\
               (forall j, j < w -> exists i, i < n /\ nth j (row_of seqs final i) dash <> dash)).
Proof.
  intros tasks Hv final. split.
  - intros i Hi. rewrite degap_row_of. apply degap_id.
    rewrite Forall_forall in seqs_nodash. apply seqs_nodash. apply nth_In. exact Hi.
  - intros r Hr. pose proof (valid_runb_inv2 tasks st0 (seq 0 n) st0_inv2 Hv) as [HIf Hcov Hw].
    fold final in HIf, Hcov, Hw. rewrite Hr in *.
    destruct (Hw r ltac:(simpl; auto)) as (w & Ww & NG).
    exists w. split.
    + intros i Hi. destruct (Hcov i Hi) as (x & [<-|[]] & Hin). apply Ww. exact Hin.
    + intros j Hj. destruct (NG j Hj) as (i & Hin & Hne). exists i. split; auto.
      destruct HIf as [_ _ Hmem _]. eapply Hmem; [|exact Hin]. simpl; auto.
Qed.

End Run.
