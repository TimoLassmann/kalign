(* Proofs about the DP model that hold for EVERY arithmetic (binary32 included): shapes of the rolling
   arrays, what the meetup can return, termination of the Hirschberg recursion and the range of every
   path[] write. *)
From Coq Require Import ZArith List Bool Lia.
From KV Require Import Kernels.
Import ListNotations.
Local Open Scope Z_scope.

Lemma mid_bounds o e : o < e -> o <= (e - o) / 2 + o < e.
Proof. intros H. Z.div_mod_to_equations. lia. Qed.

Section Shapes.
Variable A : alg.
Variables R C : Type.
Variable K : costs A R C.

Lemma init_cells_length : forall cols fi prev, length (init_cells A R C K fi prev cols) = length cols.
Proof.
  induction cols as [|c cols IH]; intros fi prev; [reflexivity|].
  destruct cols as [|c2 cols']; [reflexivity|].
  cbn [init_cells]. cbn [length]. f_equal. apply IH.
Qed.

Lemma row_cells_length : forall cols old li r pa pga pgb xa xga, length old = length cols ->
  length (row_cells A R C K li r pa pga pgb xa xga old cols) = length cols.
Proof.
  induction cols as [|c cols IH]; intros old li r pa pga pgb xa xga H.
  - destruct old; [reflexivity|discriminate].
  - destruct old as [|o old]; [discriminate|]. simpl in H. injection H as H.
    destruct cols as [|c2 cols'].
    + destruct old; [reflexivity|discriminate].
    + destruct old as [|o2 old']; [discriminate|].
      cbn [row_cells]. cbn [length]. f_equal. apply (IH (o2 :: old')). exact H.
Qed.

Lemma row_step_length : forall cells cols fi li r, length cells = S (length cols) ->
  length (row_step A R C K fi li cells cols r) = S (length cols).
Proof.
  intros cells cols fi li r H. destruct cells as [|o0 old]; [discriminate|].
  simpl in H. injection H as H. unfold row_step. cbn [length]. f_equal. apply row_cells_length. exact H.
Qed.

Theorem pass_length : forall rows cols fi li s0,
  length (pass A R C K fi li s0 rows cols) = S (length cols).
Proof.
  intros rows cols fi li s0. unfold pass.
  assert (H : length (s0 :: init_cells A R C K fi s0 cols) = S (length cols))
    by (cbn [length]; rewrite init_cells_length; reflexivity).
  revert H. generalize (s0 :: init_cells A R C K fi s0 cols).
  induction rows as [|r rows IH]; intros cells H; simpl; [exact H|].
  apply IH. apply row_step_length. exact H.
Qed.
End Shapes.

Section MeetProofs.
Variable A : alg.
Variable M : mcosts A.

(* (transition, column) pairs the scan may hold after looking at columns startb..i-1 *)
Definition okbest (startb endb : Z) (best : T A * Z * Z) : Prop :=
  let '(_, tr, c) := best in
  (tr = -1 /\ c = -1) \/
  (startb <= c <= endb /\ (tr = 1 \/ tr = 2 \/ tr = 3 \/ tr = 5 \/ tr = 6 \/ tr = 7) /\
   ((tr = 1 \/ tr = 2 \/ tr = 5 \/ tr = 7) -> c < endb)).

Lemma better_ok startb endb cand code i best :
  okbest startb endb best -> startb <= i <= endb ->
  (code = 1 \/ code = 2 \/ code = 3 \/ code = 5 \/ code = 6 \/ code = 7) ->
  ((code = 1 \/ code = 2 \/ code = 5 \/ code = 7) -> i < endb) ->
  okbest startb endb (better A cand code i best).
Proof.
  intros H Hi Hc Hl. unfold better. destruct best as [[mxv tr] c].
  destruct (gt A cand mxv); [|exact H]. right. repeat split; try lia; auto.
Qed.

Lemma meet_col_ok startb endb sz sub i f b best :
  okbest startb endb best -> startb <= i < endb -> okbest startb endb (meet_col A M sz sub i f b best).
Proof.
  intros H Hi. unfold meet_col.
  repeat (apply better_ok; [|lia|tauto|intros; lia]). exact H.
Qed.

Lemma meet_last_ok startb endb el sub f b best :
  okbest startb endb best -> startb <= endb -> okbest startb endb (meet_last A M el sub endb f b best).
Proof.
  intros H Hi. unfold meet_last.
  repeat (apply better_ok; [|lia|tauto|intros [E|[E|[E|E]]]; discriminate]). exact H.
Qed.

(* the meetup really is that scan: below endb it hands (i =? 0) to meet_col, at endb it calls meet_last; [sz], the
   startb_zero argument that the kernels compute and pass, is never read *)
Lemma meet_scan_flags : forall sz el startb endb i f b fs bs best,
  fs <> [] -> bs <> [] ->
  meet_scan A M sz el startb endb i (f :: fs) (b :: bs) best =
  meet_scan A M sz el startb endb (i + 1) fs bs (meet_col A M (i =? 0) (tiebreak A startb endb i) i f b best).
Proof. intros sz el startb endb i f b fs bs best Hf Hb. destruct fs; [congruence|]. destruct bs; [congruence|]. reflexivity. Qed.

Lemma meet_scan_ok : forall fs bs sz el startb endb i best,
  okbest startb endb best -> startb <= i -> i + Z.of_nat (length fs) = endb + 1 -> length bs = length fs ->
  okbest startb endb (meet_scan A M sz el startb endb i fs bs best).
Proof.
  induction fs as [|f fs IH]; intros bs sz el startb endb i best H Hi Hl Hb.
  - destruct bs; simpl; exact H.
  - destruct bs as [|b bs]; [discriminate|]. simpl in Hb. injection Hb as Hb.
    destruct fs as [|f2 fs'].
    + destruct bs; [|discriminate]. cbn [meet_scan]. simpl in Hl.
      assert (i = endb) by lia. subst i. apply meet_last_ok; [exact H|lia].
    + destruct bs as [|b2 bs']; [discriminate|].
      rewrite meet_scan_flags by discriminate.
      apply IH; [|lia|cbn [length] in *; lia|exact Hb].
      apply meet_col_ok; [exact H|cbn [length] in Hl; lia].
Qed.

Theorem meetup_range : forall sz el startb endb fs bs, startb < endb ->
  Z.of_nat (length fs) = endb - startb + 1 -> length bs = length fs ->
  okbest startb endb (meetup A M sz el startb endb fs bs).
Proof.
  intros. unfold meetup. apply meet_scan_ok; [left; split; reflexivity|lia|lia|assumption].
Qed.
End MeetProofs.

Lemma runner2_writes (A : alg) (Kn : kernel A) : forall fuel starta enda startb endb f0 b0,
  option_map fst (runner2 A Kn fuel starta enda startb endb f0 b0) = runner A Kn fuel starta enda startb endb f0 b0.
Proof.
  induction fuel as [|fu IH]; intros; [reflexivity|].
  cbn [runner runner2]. destruct ((enda <=? starta) || (endb <=? startb)); [reflexivity|].
  destruct (k_meetup A Kn _ startb endb _ _) as [[mxv tr] meet].
  repeat (destruct (tr =? _); [rewrite <- !IH; repeat (destruct (runner2 A Kn fu _ _ _ _ _ _) as [[? ?]|]; [|reflexivity]); reflexivity|]).
  reflexivity.
Qed.

Section RunnerProofs.
Variable A : alg.
Variable Kn : kernel A.
Variable LB : Z.       (* len_b of the aln_mem: columns of every sub-problem lie in 0..LB *)
(* the one property of the kernel instance the controller relies on: on the arrays its own two passes
   return for a sub-problem inside 0..LB, the meetup names a column of the sub-problem (and, for the
   transitions that consume column meet+1, not the last one) - whatever the numbers *)
Hypothesis meet_ok : forall starta mid enda startb endb f0 b0, 0 <= startb -> startb < endb -> endb <= LB ->
  okbest A startb endb (k_meetup A Kn mid startb endb (k_forward A Kn starta mid startb endb f0)
                                                       (k_backward A Kn mid enda startb endb b0)).

Definition enough (fuel : nat) (starta enda startb endb : Z) : Prop :=
  Z.max 0 (enda - starta) + Z.max 0 (endb - startb) < Z.of_nat fuel.

Definition writes_in (ws : list (Z * Z)) (starta enda startb endb : Z) : Prop :=
  Forall (fun w => starta <= fst w <= enda /\ startb <= snd w <= endb) ws.

Lemma writes_in_mono ws a e s n a' e' s' n' : writes_in ws a e s n -> a' <= a -> e <= e' -> s' <= s -> n <= n' -> writes_in ws a' e' s' n'.
Proof. intros H La Le Ls Ln. eapply Forall_impl; [|exact H]. cbn beta. intros w Hw. lia. Qed.

Lemma both_inside (r1 r2 : option (list (Z * Z))) w (P : Z * Z -> Prop) :
  (exists p1, r1 = Some p1 /\ Forall P p1) -> (exists p2, r2 = Some p2 /\ Forall P p2) -> Forall P w ->
  exists ws, match r1 with None => None | Some p1 => match r2 with None => None | Some p2 => Some (w ++ p1 ++ p2) end end = Some ws /\ Forall P ws.
Proof. intros (p1 & -> & H1) (p2 & -> & H2) Hw. eexists. split; [reflexivity|]. rewrite !Forall_app. auto. Qed.

Theorem runner_total : forall fuel starta enda startb endb f0 b0,
  enough fuel starta enda startb endb -> 0 <= startb -> endb <= LB ->
  exists ws, runner A Kn fuel starta enda startb endb f0 b0 = Some ws /\ writes_in ws starta enda startb endb.
Proof.
  induction fuel as [|fu IH]; intros starta enda startb endb f0 b0 E B0 BL.
  - unfold enough in E. simpl in E. lia.
  - cbn [runner].
    destruct ((enda <=? starta) || (endb <=? startb)) eqn:Stop.
    { exists []. split; [reflexivity|constructor]. }
    apply orb_false_iff in Stop as [S1 S2]. apply Z.leb_gt in S1, S2.
    set (mid := (enda - starta) / 2 + starta).
    pose proof (mid_bounds starta enda S1) as Hmid. fold mid in Hmid.
    pose proof (meet_ok starta mid enda startb endb f0 b0 B0 S2 BL) as MO.
    destruct (k_meetup A Kn mid startb endb _ _) as [[mxv tr] meet]. unfold okbest in MO.
    unfold enough in E.
    assert (SUB : forall a1 e1 s1 n1 ff bb, enough fu a1 e1 s1 n1 -> starta <= a1 -> e1 <= enda -> startb <= s1 -> n1 <= endb ->
      exists p, runner A Kn fu a1 e1 s1 n1 ff bb = Some p /\ writes_in p starta enda startb endb).
    { intros a1 e1 s1 n1 ff bb E1 B1 B2 B3 B4. destruct (IH a1 e1 s1 n1 ff bb E1) as (p & R & W); [lia|lia|].
      exists p. split; [exact R|exact (writes_in_mono _ _ _ _ _ _ _ _ _ W B1 B2 B3 B4)]. }
    destruct MO as [[Et Em]|(Hc & Htr & Hlt)].
    { subst tr meet. simpl. exists []. split; [reflexivity|constructor]. }
    (* in each of the six transitions both sub-problems lie inside and are smaller, and so do the writes *)
    destruct Htr as [Et|[Et|[Et|[Et|[Et|Et]]]]]; subst tr; cbn [Z.eqb Pos.eqb];
      (apply both_inside; [apply SUB; unfold enough; lia|apply SUB; unfold enough; lia|repeat constructor; cbn [fst snd]; lia]).
Qed.

(* aln_runner on a fresh aln_mem never runs out of fuel and leaves a path *)
Theorem raw_path_total : forall len_a, 0 <= len_a -> 0 <= LB ->
  exists p, raw_path A Kn len_a LB = Some p.
Proof.
  intros len_a Ha Hb. unfold raw_path.
  destruct (runner_total (Z.to_nat (len_a + LB + 2)) 0 len_a 0 LB (live0 A) (live0 A)) as (ws & R & _); try lia.
  { unfold enough. rewrite Z2Nat.id by lia. lia. }
  rewrite R. eexists. reflexivity.
Qed.
End RunnerProofs.
