(* The merge-sort model of Sort.v: it permutes, it sorts under a comparator that is transitive and total on the
   list, sorted permutations are unique, and it commutes with any relation the comparator respects. *)
From KV Require Import Base Sort.
From Coq Require Import Permutation Sorted.
Local Open Scope Z_scope.

Section MS.
Context {A : Type}.
Variable cmp : A -> A -> Z.
Notation le x y := (cmp x y <= 0).

Lemma merge_nil_r l : merge cmp l [] = l.
Proof. destruct l; reflexivity. Qed.
Lemma merge_nil_l l : merge cmp [] l = l.
Proof. destruct l; reflexivity. Qed.

Lemma merge_cons x t1 y t2 :
  merge cmp (x :: t1) (y :: t2) =
  if cmp x y <=? 0 then x :: merge cmp t1 (y :: t2) else y :: merge cmp (x :: t1) t2.
Proof. reflexivity. Qed.

Lemma merge_perm : forall l1 l2, Permutation (merge cmp l1 l2) (l1 ++ l2).
Proof.
  induction l1 as [|x t1 IH1]; intros l2; [rewrite merge_nil_l; reflexivity|].
  induction l2 as [|y t2 IH2]; [rewrite merge_nil_r, app_nil_r; reflexivity|].
  rewrite merge_cons. destruct (cmp x y <=? 0).
  - simpl. constructor. apply IH1.
  - rewrite IH2. apply Permutation_middle.
Qed.

Lemma msort_fuel_perm : forall f l, Permutation (msort_fuel cmp f l) l.
Proof.
  induction f as [|f IH]; intros l; [reflexivity|].
  cbn [msort_fuel]. destruct (length l <=? 1)%nat; [reflexivity|].
  rewrite merge_perm, !IH, firstn_skipn. reflexivity.
Qed.

Theorem msort_perm l : Permutation (msort cmp l) l.
Proof. apply msort_fuel_perm. Qed.

Variable P : A -> Prop.
Hypothesis le_trans : forall x y z, P x -> P y -> P z -> le x y -> le y z -> le x z.

Lemma merge_sorted : forall l1 l2,
  Forall P l1 -> Forall P l2 ->
  (forall x y, In x l1 -> In y l2 -> le x y \/ le y x) ->
  StronglySorted (fun x y => le x y) l1 -> StronglySorted (fun x y => le x y) l2 ->
  StronglySorted (fun x y => le x y) (merge cmp l1 l2).
Proof.
  induction l1 as [|x t1 IH1]; intros l2 P1 P2 Tot S1 S2; [rewrite merge_nil_l; exact S2|].
  induction l2 as [|y t2 IH2]; [rewrite merge_nil_r; exact S1|].
  rewrite merge_cons.
  inversion S1 as [|? ? S1' F1]; subst. inversion S2 as [|? ? S2' F2]; subst.
  inversion P1 as [|? ? Px P1']; subst. inversion P2 as [|? ? Py P2']; subst.
  destruct (cmp x y <=? 0) eqn:E.
  - apply Z.leb_le in E. constructor.
    + apply IH1; auto. intros a b Ha Hb. apply Tot; simpl; auto.
    + rewrite (merge_perm t1 (y :: t2)). apply Forall_app. split; [exact F1|].
      constructor; [exact E|].
      rewrite Forall_forall in F2, P2' |- *. intros z Hz.
      apply (le_trans x y z); auto.
  - apply Z.leb_gt in E.
    assert (le y x) as Hyx by (destruct (Tot x y ltac:(simpl; auto) ltac:(simpl; auto)); [lia|assumption]).
    constructor.
    + apply IH2; auto. intros a b Ha Hb. apply Tot; simpl; auto.
    + rewrite (merge_perm (x :: t1) t2). apply Forall_app. split; [|exact F2].
      constructor; [exact Hyx|].
      rewrite Forall_forall in F1, P1' |- *. intros z Hz.
      apply (le_trans y x z); auto.
Qed.

(* totality is asked only of pairs x, y with x before y in l: merge compares an element of the left run only
   with elements of the right run, and the two runs are the halves of a segment of l *)
Lemma msort_fuel_sorted : forall f l,
  (length l <= f)%nat -> Forall P l ->
  (forall l1 l2 x y, l = l1 ++ l2 -> In x l1 -> In y l2 -> le x y \/ le y x) ->
  StronglySorted (fun x y => le x y) (msort_fuel cmp f l).
Proof.
  induction f as [|f IH]; intros l Hf HP Tot.
  - destruct l; [constructor|simpl in Hf; lia].
  - cbn [msort_fuel]. destruct (length l <=? 1)%nat eqn:E.
    + apply Nat.leb_le in E. destruct l as [|a [|b l]]; simpl in E; try lia; repeat constructor.
    + apply Nat.leb_gt in E.
      set (n1 := (length l / 2)%nat).
      assert (n1 < length l)%nat as Hn1 by (apply Nat.div_lt; lia).
      assert (0 < n1)%nat as Hn1' by (unfold n1; apply Nat.div_str_pos; lia).
      assert (l = firstn n1 l ++ skipn n1 l) as Hsplit by (symmetry; apply firstn_skipn).
      apply merge_sorted.
      * rewrite Forall_forall in *. intros x Hx. apply HP.
        apply (Permutation_in x (msort_fuel_perm f _)) in Hx. rewrite Hsplit. apply in_or_app; auto.
      * rewrite Forall_forall in *. intros x Hx. apply HP.
        apply (Permutation_in x (msort_fuel_perm f _)) in Hx. rewrite Hsplit. apply in_or_app; auto.
      * intros x y Hx Hy.
        apply (Permutation_in x (msort_fuel_perm f _)) in Hx.
        apply (Permutation_in y (msort_fuel_perm f _)) in Hy.
        apply (Tot (firstn n1 l) (skipn n1 l)); auto.
      * apply IH.
        -- rewrite firstn_length. lia.
        -- rewrite Hsplit in HP. apply Forall_app in HP. tauto.
        -- intros l1 l2 x y Hl Hx Hy. apply (Tot l1 (l2 ++ skipn n1 l)); auto.
           ++ rewrite app_assoc, <- Hl. exact Hsplit.
           ++ apply in_or_app; auto.
      * apply IH.
        -- rewrite skipn_length. lia.
        -- rewrite Hsplit in HP. apply Forall_app in HP. tauto.
        -- intros l1 l2 x y Hl Hx Hy. apply (Tot (firstn n1 l ++ l1) l2); auto.
           ++ rewrite <- app_assoc, <- Hl. exact Hsplit.
           ++ apply in_or_app; auto.
Qed.

Theorem msort_sorted l :
  Forall P l ->
  (forall l1 l2 x y, l = l1 ++ l2 -> In x l1 -> In y l2 -> le x y \/ le y x) ->
  StronglySorted (fun x y => le x y) (msort cmp l).
Proof. intros. apply msort_fuel_sorted; auto. Qed.

End MS.

Lemma sorted_perm_unique {A} (R : A -> A -> Prop) :
  forall l1 l2,
  (forall x y, In x l1 -> In y l1 -> R x y -> R y x -> x = y) ->
  StronglySorted R l1 -> StronglySorted R l2 -> Permutation l1 l2 ->
  (forall x, In x l1 -> ~ R x x \/ True) -> l1 = l2.
Proof.
  induction l1 as [|x l1 IH]; intros l2 Anti S1 S2 Hp _.
  - apply Permutation_nil in Hp. subst; reflexivity.
  - destruct l2 as [|y l2]; [symmetry in Hp; apply Permutation_nil in Hp; discriminate|].
    inversion S1 as [|? ? S1' F1]; subst. inversion S2 as [|? ? S2' F2]; subst.
    assert (x = y) as ->.
    { assert (In y (x :: l1)) as Hy by (apply (Permutation_in y (Permutation_sym Hp)); simpl; auto).
      assert (In x (y :: l2)) as Hx by (apply (Permutation_in x Hp); simpl; auto).
      destruct Hy as [Hy|Hy]; [auto|]. destruct Hx as [Hx|Hx]; [auto|].
      rewrite Forall_forall in F1, F2.
      apply Anti; simpl; auto. }
    f_equal. apply IH; auto.
    + intros a b Ha Hb. apply Anti; simpl; auto.
    + apply Permutation_cons_inv in Hp. exact Hp.
Qed.

Lemma fop_app_cross {A} (R : A -> A -> Prop) : forall l1 l2 x y,
  ForallOrdPairs R (l1 ++ l2) -> In x l1 -> In y l2 -> R x y.
Proof.
  induction l1 as [|a l1 IH]; intros l2 x y H Hx Hy; [contradiction|].
  simpl in H. inversion H as [|? ? Ha Hrest]; subst.
  destruct Hx as [<-|Hx].
  - rewrite Forall_forall in Ha. apply Ha. apply in_or_app; auto.
  - eapply IH; eauto.
Qed.

Lemma fop_perm {A} (R : A -> A -> Prop) : (forall x y, R x y -> R y x) ->
  forall l l', Permutation l l' -> ForallOrdPairs R l -> ForallOrdPairs R l'.
Proof.
  intros Hsym l l' Hp. induction Hp; intro H; auto.
  - inversion H; subst. constructor; auto. eapply Permutation_Forall; eauto.
  - inversion H as [|? ? Hy H']; subst. inversion H' as [|? ? Hx H'']; subst.
    inversion Hy as [|? ? Hyx Hyl]; subst.
    constructor; [constructor; auto|]. constructor; auto.
Qed.

Lemma fop_impl {A} (R Q : A -> A -> Prop) : (forall x y, R x y -> Q x y) ->
  forall l, ForallOrdPairs R l -> ForallOrdPairs Q l.
Proof.
  intros H l. induction 1 as [|a l Ha Hl IH]; constructor; [|exact IH].
  eapply Forall_impl; [|exact Ha]. intros; auto.
Qed.

Theorem msort_canonical {A} (cmp : A -> A -> Z) (l l' : list A) :
  (forall x y z, In x l -> In y l -> In z l -> cmp x y <= 0 -> cmp y z <= 0 -> cmp x z <= 0) ->
  (forall x y, In x l -> In y l -> cmp x y <= 0 -> cmp y x <= 0 -> False) ->
  ForallOrdPairs (fun x y => cmp x y <= 0 \/ cmp y x <= 0) l ->
  Permutation l l' -> msort cmp l = msort cmp l'.
Proof.
  intros Htr Has Htot Hp.
  assert (forall x, In x l' -> In x l) as Hin' by (intros x Hx; eapply Permutation_in; [apply Permutation_sym; exact Hp|exact Hx]).
  assert (ForallOrdPairs (fun x y => cmp x y <= 0 \/ cmp y x <= 0) l') as Htot'.
  { eapply fop_perm; [|exact Hp|exact Htot]. intros x y [H|H]; auto. }
  apply (sorted_perm_unique (fun x y => cmp x y <= 0)).
  - intros x y Hx Hy H1 H2. exfalso.
    apply (Has x y); auto; eapply Permutation_in; try apply (msort_perm cmp l); auto.
  - apply (msort_sorted cmp (fun x => In x l)).
    + intros x y z. apply Htr.
    + apply Forall_forall. auto.
    + intros l1 l2 x y Hl Hx Hy. subst l. apply (fop_app_cross _ l1 l2 x y Htot); auto.
  - apply (msort_sorted cmp (fun x => In x l)).
    + intros x y z. apply Htr.
    + apply Forall_forall. auto.
    + intros l1 l2 x y Hl Hx Hy. subst l'. apply (fop_app_cross _ l1 l2 x y Htot'); auto.
  - rewrite (msort_perm cmp l), (msort_perm cmp l'). exact Hp.
  - auto.
Qed.

Section SortRel.
Context {A B : Type}.
Variable R : A -> B -> Prop.
Variable cmpA : A -> A -> Z.
Variable cmpB : B -> B -> Z.
Hypothesis cmp_resp : forall x x' y y', R x x' -> R y y' -> cmpA x y = cmpB x' y'.

Lemma merge_Forall2 : forall l1 l1', Forall2 R l1 l1' -> forall l2 l2', Forall2 R l2 l2' ->
  Forall2 R (merge cmpA l1 l2) (merge cmpB l1' l2').
Proof.
  induction 1 as [|x x' t1 t1' Hx H1 IH1]; intros l2 l2' H2.
  - rewrite !merge_nil_l. exact H2.
  - induction H2 as [|y y' t2 t2' Hy H2 IH2].
    + rewrite !merge_nil_r. constructor; auto.
    + rewrite !merge_cons. rewrite <- (cmp_resp x x' y y' Hx Hy).
      destruct (cmpA x y <=? 0).
      * constructor; [exact Hx | apply IH1; constructor; auto].
      * constructor; [exact Hy | exact IH2].
Qed.

Lemma Forall2_firstn : forall n l l', Forall2 R l l' -> Forall2 R (firstn n l) (firstn n l').
Proof. induction n; intros l l' H; [constructor|]. destruct H; simpl; constructor; auto. Qed.
Lemma Forall2_skipn : forall n l l', Forall2 R l l' -> Forall2 R (skipn n l) (skipn n l').
Proof. induction n; intros l l' H; [exact H|]. destruct H; simpl; [constructor|auto]. Qed.
Lemma Forall2_len : forall l l', Forall2 R l l' -> length l = length l'.
Proof. induction 1; simpl; congruence. Qed.

Lemma msort_fuel_Forall2 : forall f l l', Forall2 R l l' ->
  Forall2 R (msort_fuel cmpA f l) (msort_fuel cmpB f l').
Proof.
  induction f as [|f IH]; intros l l' H; [exact H|].
  cbn [msort_fuel]. rewrite <- (Forall2_len l l' H).
  destruct (length l <=? 1)%nat; [exact H|].
  apply merge_Forall2; apply IH; [apply Forall2_firstn|apply Forall2_skipn]; exact H.
Qed.

Lemma msort_Forall2 l l' : Forall2 R l l' -> Forall2 R (msort cmpA l) (msort cmpB l').
Proof. intro H. unfold msort. rewrite <- (Forall2_len l l' H). apply msort_fuel_Forall2. exact H. Qed.
End SortRel.
