(* C01, assembly layer instantiated to EVERY guide tree: the structural conjuncts of valid_runb (operands active and
   distinct, result label free and inside the sip table) are discharged by TreeSchedule.v for the serial schedule of any
   guide tree; what is left as a premise is that the edit operations of every merge fit the two groups they join. *)
From Coq Require Import ZArith List Bool Lia Permutation.
From KV Require Import Weave WeaveProofs WeaveCheck AssemblyProofs Pipeline CladeTasks TreeSchedule.
Import ListNotations.
Local Open Scope nat_scope.

Definition strip (x : task) : nat * nat * nat := fst x.

Section TA.
Variable seqs : list (list Z).
Notation n := (length seqs).

(* the part of valid_runb that depends on the edit operations *)
Fixpoint fits_runb (st : wstate) (tasks : list task) : bool :=
  match tasks with
  | [] => true
  | (a, b, c, ops) :: rest =>
    widths_okb seqs st a && widths_okb seqs st b &&
    negb (Nat.eqb (length (members st a)) 0) && negb (Nat.eqb (length (members st b)) 0) &&
    ops_fitb (map op_kind ops) (width_of seqs st a) (width_of seqs st b) &&
    fits_runb (merge_step st a b c ops) rest
  end.

Lemma fits_runb_cons st a b c ops rest :
  fits_runb st ((a, b, c, ops) :: rest) = true <->
  (width_ok seqs st a (width_of seqs st a) /\ width_ok seqs st b (width_of seqs st b) /\
   members st a <> [] /\ members st b <> [] /\
   ops_fit (map op_kind ops) (width_of seqs st a) (width_of seqs st b)) /\
  fits_runb (merge_step st a b c ops) rest = true.
Proof.
  cbn [fits_runb].
  rewrite !andb_true_iff, !negb_true_iff, !Nat.eqb_neq, !length_zero_iff_nil, !widths_okb_ok, ops_fitb_ok. tauto.
Qed.

Lemma valid_of_sched : forall tasks st act,
  sched_ok act (map strip tasks) ->
  Forall (fun q => tc q < length (w_sip st)) (map strip tasks) ->
  fits_runb st tasks = true ->
  valid_runb seqs st act tasks = true.
Proof.
  induction tasks as [|[[[a b] c] ops] rest IH]; intros st act Hs Hc Hf; [reflexivity|].
  cbn [map strip fst sched_ok] in Hs, Hc. destruct Hs as (Ha & Hb & Hab & Hnc & Hrest).
  inversion Hc as [|? ? Hc1 Hc2]; subst.
  apply fits_runb_cons in Hf as ((Wa & Wb & Na & Nb & Hfit) & Hf).
  apply valid_runb_cons. split; [constructor; assumption|]. split; [exact Na|]. split; [exact Nb|].
  apply IH; [exact Hrest| |exact Hf].
  eapply Forall_impl; [|exact Hc2]. cbn beta. intros q Hq. rewrite merge_step_sip_length. exact Hq.
Qed.

Lemma act_final_acts : forall tasks act,
  act_final act tasks = fold_left (fun act x => act_after act (fst (fst x)) (snd (fst x)) (snd x)) (map strip tasks) act.
Proof.
  induction tasks as [|[[[a b] c] ops] rest IH]; intros act; [reflexivity|]. cbn [act_final map strip fst snd fold_left]. apply IH.
Qed.
End TA.

Lemma label_bound t : forall next, snd (label t next) = next + (length (leaves t) - 1) /\ 1 <= length (leaves t).
Proof.
  induction t as [i|l IHl r IHr]; intros next; [cbn; lia|].
  cbn [label]. destruct (IHl next) as (A & A'). destruct (label l next) as [l' n1]. destruct (IHr n1) as (B & B'). destruct (label r n1) as [r' n2].
  cbn [fst snd leaves] in *. rewrite app_length. lia.
Qed.

Theorem tree_final_act : forall t n,
  NoDup (leaves t) -> (forall i, In i (leaves t) <-> i < n) ->
  acts n (sort_tasks (tasks_of (fst (label t n)))) = [lid (fst (label t n))].
Proof.
  intros t n Hnd Hlv. assert (forall i, In i (leaves t) -> i < n) as Hlt by (intros i; apply Hlv).
  pose proof (tree_schedule_is_complete t n Hnd Hlt) as (_ & HC). cbn zeta in HC.
  set (lt := fst (label t n)) in *. set (L := sort_tasks (tasks_of lt)) in *.
  pose proof (tree_schedule t n Hnd Hlt) as HL. fold lt in HL. fold L in HL.
  destruct (acts_spec n L (schedule_fresh n _ L HL L [] (eq_sym (app_nil_r L)))) as (G1 & G2).
  pose proof (sc_kids _ _ _ HL) as Hrk.
  (* active at the end = produced or input, and not consumed = (by completeness) the root *)
  apply Permutation_length_1_inv, NoDup_Permutation; [repeat constructor; intros []|exact G1|].
  intros x. rewrite G2, <- Hlv, <- in_app_iff. inversion Hrk as [|? ? Hr _]; subst. split.
  - intros [<-|[]]. split; [apply (Permutation_in _ HC); left; reflexivity|exact Hr].
  - intros (Q & Hk). apply (Permutation_in _ (Permutation_sym HC)) in Q. destruct Q as [Q|Q]; [left; exact Q|contradiction].
Qed.

Lemma tree_sched_facts t n :
  NoDup (leaves t) -> (forall i, In i (leaves t) <-> i < n) ->
  let L := sort_tasks (tasks_of (fst (label t n))) in
  sched_ok (seq 0 n) L /\ Forall (fun q => tc q < n + (n - 1)) L /\ acts n L = [lid (fst (label t n))].
Proof.
  intros Hnd Hlv L. assert (forall i, In i (leaves t) -> i < n) as Hlt by (intros i; apply Hlv).
  split; [apply tree_schedule_ok; assumption|]. split; [|apply tree_final_act; assumption].
  apply sort_tasks_Forall. eapply Forall_impl; [|apply tasks_in]. intros [[a b] c] (_ & _ & Hc). unfold tc. cbn [snd].
  pose proof (label_spec t n) as (_ & H2 & _). pose proof (label_bound t n) as (Hb1 & Hb2).
  assert (length (leaves t) <= n) as Hle.
  { apply NoDup_incl_length with (l' := seq 0 n) in Hnd; [rewrite seq_length in Hnd; exact Hnd|].
    intros i Hi. apply in_seq. specialize (Hlt _ Hi). lia. }
  destruct (H2 _ Hc) as [Q|Q]; [specialize (Hlt _ Q); lia|lia].
Qed.

(* C01 for every guide tree: only "the ops of every merge fit" is left as a premise *)
Theorem assembly_integrity_any_tree : forall seqs,
  Forall (Forall (fun c => c <> dash)) seqs ->
  forall t, NoDup (leaves t) -> (forall i, In i (leaves t) <-> i < length seqs) ->
  forall tasks,
  map strip tasks = sort_tasks (tasks_of (fst (label t (length seqs)))) ->
  fits_runb seqs (st0 seqs) tasks = true ->
  let final := run_from (st0 seqs) tasks in
  (forall i, i < length seqs -> degap (row_of seqs final i) = nth i seqs []) /\
  exists w, (forall i, i < length seqs -> length (row_of seqs final i) = w) /\
            (forall j, j < w -> exists i, i < length seqs /\ nth j (row_of seqs final i) dash <> dash).
Proof.
  intros seqs Hd t Hnd Hlv tasks Hs Hf final.
  destruct (tree_sched_facts t (length seqs) Hnd Hlv) as (S1 & S2 & S3). rewrite <- Hs in S1, S2.
  assert (valid_runb seqs (st0 seqs) (seq 0 (length seqs)) tasks = true) as Hv
    by (apply valid_of_sched; [exact S1|rewrite st0_sip_length; exact S2|exact Hf]).
  pose proof (assembly_integrity seqs Hd tasks Hv) as (A1 & A2). split; [exact A1|].
  apply (A2 (lid (fst (label t (length seqs))))).
  rewrite act_final_acts, Hs. exact S3.
Qed.
