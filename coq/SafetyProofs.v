(* C05: lemmas on whether an access is in range and on what the readers hand on, over the reader/writer
   model (Formats.v), the conversion model (Api.v) and the path expansion (Weave.v). *)
From KV Require Import ListFacts Base Params Detect WeaveProofs Formats FormatsProofs FormatsProofs2 Api.
Local Open Scope Z_scope.

Definition alpha_in_range (alpha : list Z) (L : Z) : bool := forallb (fun v => (-1 <=? v) && (v <? L)) alpha.

Lemma nthZ_range alpha L c : alpha_in_range alpha L = true -> 0 < L -> -1 <= nthZ (-1) alpha c < L.
Proof.
  intros H HL. unfold nthZ. destruct (c <? 0); [lia|].
  unfold alpha_in_range in H. rewrite forallb_forall in H.
  destruct (nth_in_or_default (Z.to_nat c) alpha (-1)) as [I|E].
  - specialize (H _ I). apply andb_true_iff in H as [H1 H2]. apply Z.leb_le in H1. apply Z.ltb_lt in H2. lia.
  - rewrite E. lia.
Qed.

Lemma code_of_range alpha L amb c :
  alpha_in_range alpha L = true -> 0 <= amb < L -> 0 <= code_of alpha amb c < L.
Proof.
  intros H Ha. unfold code_of.
  assert (R : -1 <= (if c <? 0 then -1 else nthZ (-1) alpha c) < L).
  { destruct (c <? 0); [lia|]. apply nthZ_range; [assumption|lia]. }
  destruct ((if c <? 0 then -1 else nthZ (-1) alpha c) =? -1) eqn:E; [assumption|].
  apply Z.eqb_neq in E. lia.
Qed.

Lemma tables_in_range :
  alpha_in_range alpha_defDNA 5 = true /\ alpha_in_range alpha_redPROTEIN 13 = true /\
  alpha_in_range alpha_ambPROTEIN 23 = true /\
  (0 <=? nthZ (-1) alpha_defDNA 78) && (nthZ (-1) alpha_defDNA 78 <? 5) = true /\
  (0 <=? nthZ (-1) alpha_redPROTEIN 88) && (nthZ (-1) alpha_redPROTEIN 88 <? 13) = true /\
  (0 <=? nthZ (-1) alpha_ambPROTEIN 88) && (nthZ (-1) alpha_ambPROTEIN 88 <? 23) = true.
Proof. vm_compute. repeat split; reflexivity. Qed.

(* sizes of the tables indexed with the codes: Peq[13]/B[13] in bpm.c (nucleotide codes < 5 < 13),
   subm[23][23] and the 64-float profile column in the aligner *)
Definition tree_L (bt : Z) : Z := if bt =? ALN_BIOTYPE_DNA then 5 else 13.
Definition aln_L (bt : Z) : Z := if bt =? ALN_BIOTYPE_DNA then 5 else 23.

Definition recs_wf (l : list rrec) : Prop := Forall rec_wf l.

Lemma bump_length : forall l i, length (bump l i) = length l.
Proof. induction l as [|x l IH]; intros [|i]; simpl; auto. Qed.

Lemma count_byte_length h c : length (count_byte h c) = length h.
Proof. unfold count_byte. destruct ((0 <=? c) && (c <? 128)); [apply bump_length|reflexivity]. Qed.

Lemma count_line_length : forall l h, length (count_line h l) = length h.
Proof.
  unfold count_line. induction l as [|c l IH]; intro h; simpl; [reflexivity|].
  rewrite IH. apply count_byte_length.
Qed.

Definition fasta_inv (st : option (list rrec * option rrec * list Z)) : Prop :=
  match st with
  | None => True
  | Some (done, cur, _) => recs_wf done /\ match cur with Some r => rec_wf r | None => True end
  end.

Lemma fasta_step_inv st l : fasta_inv st -> fasta_inv (fasta_step st l).
Proof.
  destruct st as [[[done cur] h]|]; simpl; [|auto].
  intros (D & C). destruct (hint_fa l).
  - simpl. split; [|apply empty_rec_wf]. destruct cur; [constructor; assumption|assumption].
  - destruct cur as [r|]; [simpl; split; [assumption|apply feed_line_wf; assumption]|].
    destruct (existsb isalpha l); simpl; auto.
Qed.

Lemma read_fasta_wf lines m : read_fasta lines = Some m -> recs_wf (m_recs m).
Proof.
  unfold read_fasta. intro H.
  pose proof (fold_left_inv fasta_inv fasta_step fasta_step_inv lines (Some ([], None, repeat 0 128)) (conj (Forall_nil _) I)) as Inv.
  destruct (fold_left fasta_step lines _) as [[[done cur] h]|]; [|discriminate].
  inversion H; subst; simpl in *. destruct Inv as (D & C).
  apply Forall_rev. destruct cur; [constructor; assumption|assumption].
Qed.

Lemma update_nth_Forall {A} (P : A -> Prop) (f : A -> A) : (forall x, P x -> P (f x)) ->
  forall n l, Forall P l -> Forall P (update_nth n f l).
Proof.
  intros Hf n. induction n as [|n IH]; intros [|x l] H; simpl; auto;
    inversion H; subst; constructor; auto.
Qed.

Lemma pad_recs_wf l n : recs_wf l -> recs_wf (pad_recs l n).
Proof.
  intro H. rewrite pad_recs_eq. destruct (length l <? n)%nat; [|assumption].
  apply Forall_app. split; [assumption|]. apply Forall_forall. intros x I.
  apply repeat_spec in I. subst. apply empty_rec_wf.
Qed.

Definition clu_inv (st : list rrec * nat * list Z) : Prop := recs_wf (fst (fst st)).

Lemma clu_step_inv st l : clu_inv st -> clu_inv (clu_step st l).
Proof.
  destruct st as [[recs active] h]. unfold clu_inv, clu_step. cbn [fst]. intros R.
  destruct l as [|c t]; [auto|]. destruct (isspace c); [auto|]. cbn [fst].
  apply update_nth_Forall; [|apply pad_recs_wf; assumption].
  intros x Hx. apply feed_line_wf. exact Hx.
Qed.

Lemma read_clu_wf lines m : read_clu lines = Some m -> recs_wf (m_recs m).
Proof.
  unfold read_clu. intro H.
  pose proof (fold_left_inv clu_inv clu_step clu_step_inv (tl lines) ([], 0%nat, repeat 0 128) (Forall_nil _)) as Inv.
  destruct (fold_left clu_step (tl lines) _) as [[recs a] h]. inversion H; subst. exact Inv.
Qed.

Lemma msf_header_wf : forall lines recs recs' body, recs_wf recs -> msf_header lines recs = (recs', body) -> recs_wf recs'.
Proof.
  induction lines as [|l rest IH]; intros recs recs' body W H; simpl in H.
  - inversion H; subst; assumption.
  - destruct (has l _); [inversion H; subst; assumption|].
    destruct (after _ l) as [p|]; [|eapply IH; eauto].
    destruct (has l _); [|eapply IH; eauto].
    eapply IH; [|exact H]. apply Forall_app. split; [assumption|]. constructor; [apply empty_rec_wf|constructor].
Qed.

Definition msf_inv (st : option (list rrec * nat * list Z)) : Prop :=
  match st with None => True | Some (recs, _, _) => recs_wf recs end.

Lemma msf_step_inv st l : msf_inv st -> msf_inv (msf_step st l).
Proof.
  destruct st as [[[recs active] h]|]; simpl; [|auto]. intros R.
  destruct l as [|c t]; [simpl; auto|]. destruct (isspace c); [simpl; auto|].
  destruct (length recs <=? active)%nat; [exact I|]. simpl.
  apply update_nth_Forall; [|assumption]. intros x Hx. apply feed_line_wf. exact Hx.
Qed.

Lemma read_msf_wf lines m : read_msf lines = Some m -> recs_wf (m_recs m).
Proof.
  unfold read_msf. intro H. destruct (msf_header lines []) as [recs body] eqn:Hh.
  pose proof (msf_header_wf lines [] recs body (Forall_nil _) Hh) as W.
  pose proof (fold_left_inv msf_inv msf_step msf_step_inv body (Some (recs, 0%nat, repeat 0 128)) W) as Inv.
  destruct (fold_left msf_step body _) as [[[r a] h]|]; [|discriminate].
  inversion H; subst. exact Inv.
Qed.

Lemma read_one_inv bytes m : read_one bytes = Some (Some m) ->
  exists lines, read_fasta lines = Some m \/ read_msf lines = Some m \/ read_clu lines = Some m.
Proof.
  unfold read_one. destruct (read_lines bytes) as [|l0 ls]; [discriminate|].
  destruct (length l0 =? 1)%nat; [discriminate|]. intros H. exists (l0 :: ls).
  destruct (detect_format (l0 :: ls) =? FORMAT_FA); [destruct (read_fasta _); inversion H; auto|].
  destruct (detect_format (l0 :: ls) =? FORMAT_MSF); [destruct (read_msf _); inversion H; auto|].
  destruct (detect_format (l0 :: ls) =? FORMAT_CLU); [destruct (read_clu _); inversion H; auto|discriminate].
Qed.

Lemma read_one_wf bytes m : read_one bytes = Some (Some m) -> recs_wf (m_recs m).
Proof. intros H. destruct (read_one_inv _ _ H) as (lines & [E|[E|E]]); eauto using read_fasta_wf, read_msf_wf, read_clu_wf. Qed.

(* Every reader counts the bytes of the sequence lines into a histogram that starts as 128 zeros and keeps its
   length: this is the premise [length freq = 128] of the detection theorems. *)
Definition hist_ok {A} (st : option (A * list Z)) : Prop :=
  match st with Some (_, h) => length h = 128%nat | None => True end.

Lemma fasta_step_hist st l : hist_ok st -> hist_ok (fasta_step st l).
Proof.
  destruct st as [[[d c] h]|]; [|auto]. intro L. unfold fasta_step. destruct (hint_fa l); [exact L|].
  destruct c; [|destruct (existsb isalpha l); [exact I|]]; cbn [hist_ok]; rewrite count_line_length; exact L.
Qed.

Lemma clu_step_hist st l : hist_ok (Some st) -> hist_ok (Some (clu_step st l)).
Proof.
  destruct st as [[r a] h]. intro L. unfold clu_step. destruct l as [|c t]; [exact L|]. destruct (isspace c); [exact L|].
  cbn [hist_ok]. rewrite count_line_length. exact L.
Qed.

Lemma msf_step_hist st l : hist_ok st -> hist_ok (msf_step st l).
Proof.
  destruct st as [[[r a] h]|]; [|auto]. intro L. unfold msf_step. destruct l as [|c t]; [exact L|]. destruct (isspace c); [exact L|].
  destruct (length r <=? a)%nat; [exact I|]. cbn [hist_ok]. rewrite count_line_length. exact L.
Qed.

Lemma read_fasta_freq lines m : read_fasta lines = Some m -> length (m_freq m) = 128%nat.
Proof.
  unfold read_fasta. intro H.
  pose proof (fold_left_inv hist_ok fasta_step fasta_step_hist lines (Some ([], None, repeat 0 128)) (repeat_length _ _)) as Inv.
  destruct (fold_left fasta_step lines _) as [[[d c] h]|]; [|discriminate]. inversion H; subst. exact Inv.
Qed.

Lemma read_clu_freq lines m : read_clu lines = Some m -> length (m_freq m) = 128%nat.
Proof.
  unfold read_clu. intro H.
  pose proof (fold_left_inv (fun st => hist_ok (Some st)) clu_step clu_step_hist (tl lines) ([], 0%nat, repeat 0 128) (repeat_length _ _)) as Inv.
  destruct (fold_left clu_step (tl lines) _) as [[r a] h]. inversion H; subst. exact Inv.
Qed.

Lemma read_msf_freq lines m : read_msf lines = Some m -> length (m_freq m) = 128%nat.
Proof.
  unfold read_msf. intro H. destruct (msf_header lines []) as [recs body].
  pose proof (fold_left_inv hist_ok msf_step msf_step_hist body (Some (recs, 0%nat, repeat 0 128)) (repeat_length _ _)) as Inv.
  destruct (fold_left msf_step body _) as [[[r a] h]|]; [|discriminate]. inversion H; subst. exact Inv.
Qed.

Lemma read_one_freq bytes m : read_one bytes = Some (Some m) -> length (m_freq m) = 128%nat.
Proof. intros H. destruct (read_one_inv _ _ H) as (lines & [E|[E|E]]); eauto using read_fasta_freq, read_msf_freq, read_clu_freq. Qed.

Definition acc_inv (acc : option (option in_msa)) : Prop :=
  match acc with
  | Some (Some m) => (2 <= length (i_recs m))%nat /\ recs_wf (i_recs m)
  | _ => True
  end.

Lemma read_step_inv acc bytes : acc_inv acc -> acc_inv (read_step acc bytes).
Proof.
  destruct acc as [cur|]; simpl; [|auto]. intro H.
  destruct (read_one bytes) as [[m|]|] eqn:E; [|exact H|exact I].
  pose proof (read_one_wf _ _ E) as W.
  destruct cur as [d|].
  - destruct (negb (i_biotype d =? ALN_BIOTYPE_UNDEF) && negb (i_biotype d =? _)); [exact I|].
    destruct (length (i_recs d ++ m_recs m) <? 2)%nat eqn:L; [exact I|]. simpl.
    apply Nat.ltb_ge in L. split; [exact L|]. apply Forall_app. split; [apply H|exact W].
  - destruct (length (m_recs m) <? 2)%nat eqn:L; [exact I|]. simpl.
    apply Nat.ltb_ge in L. split; [exact L|exact W].
Qed.

(* merge_msa adds the histograms entry by entry: what kalign_read_input hands to the detection of the
   alphabet has 128 entries *)
Definition acc_hist (acc : option (option in_msa)) : Prop :=
  match acc with Some (Some m) => length (i_freq m) = 128%nat | _ => True end.

Lemma read_step_hist acc bytes : acc_hist acc -> acc_hist (read_step acc bytes).
Proof.
  destruct acc as [cur|]; [|auto]. intros L. unfold read_step. destruct (read_one bytes) as [[m1|]|] eqn:E; [|exact L|exact I].
  pose proof (read_one_freq _ _ E) as F. destruct cur as [d|].
  - destruct (_ && _); [exact I|]. destruct (_ <? 2)%nat; [exact I|]. cbn [acc_hist i_freq] in *.
    rewrite map_length, combine_length, L, F. reflexivity.
  - destruct (_ <? 2)%nat; [exact I|]. exact F.
Qed.

Theorem read_inputs_freq files m : read_inputs files = ROk m -> length (i_freq m) = 128%nat.
Proof.
  unfold read_inputs. intro H. pose proof (fold_left_inv acc_hist read_step read_step_hist files (Some None) I) as Inv.
  destruct (fold_left read_step files _) as [[m'|]|]; inversion H; subst. exact Inv.
Qed.

Lemma max_name_len_le_256 rows : (max_name_len rows <= 256)%nat.
Proof.
  unfold max_name_len. induction rows as [|x rows IH]; cbn [map fold_right]; [lia|].
  apply Nat.max_lub; [|exact IH]. unfold cname. rewrite firstn_length. apply Nat.le_min_l.
Qed.

