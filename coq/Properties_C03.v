(* C03 - The alignment does not depend on the order of the input sequences.
   The lemmas these theorems rest on are in SortProofs.v / ApiProofs.v / OrderProofs.v. *)
From KV Require Import Base Params Sort SortProofs Api ApiProofs OrderProofs.
From Coq Require Import Permutation.
Local Open Scope Z_scope.

(* the glibc merge-sort model returns a permutation, for every comparator *)
Theorem C03_sort_is_permutation : forall (cmp : srec -> srec -> Z) l, Permutation (msort cmp l) l.
Proof. intros. apply msort_perm. Qed.
Print Assumptions C03_sort_is_permutation.

(* Canonical order: two orders of the same records (pairwise distinguishable by
   (length, first 256 name bytes), which is what sort_by_len_name compares) sort to the same list. *)
Theorem C03_canonical_order_unique : forall l1 l2,
  Permutation l1 l2 -> pairwise_distinguishable l1 -> msort cmp_p l1 = msort cmp_p l2.
Proof.
  intros l1 l2 Hp Hd. apply msort_canonical; [| |eapply fop_impl; [|exact Hd]|exact Hp].
  - intros x y z _ _ _. apply cmp_p_trans.
  - intros x y _ _. apply cmp_p_asym.
  - intros x y [H _]. apply cmp_p_total, H.
Qed.
Print Assumptions C03_canonical_order_unique.

(* Main statement: whatever the core (guide tree + progressive alignment) computes from the
   canonically ordered codes, supplying the records in another order yields the same named rows,
   permuted; a run is rejected for one order iff it is rejected for the other. *)
Theorem C03_order_invariance : forall core bt ty gpo gpe tgpe recs1 recs2,
  Permutation recs1 recs2 ->
  pairwise_distinguishable (filter nonempty_p recs1) ->
  match kalign_run_model core bt ty gpo gpe tgpe recs1, kalign_run_model core bt ty gpo gpe tgpe recs2 with
  | Some o1, Some o2 => Permutation o1 o2
  | None, None => True
  | _, _ => False
  end.
Proof.
  intros core bt ty gpo gpe tgpe recs1 recs2 Hp Hd. rewrite !kalign_run_model_eq, !essential_check_ranks. fold nonempty_p.
  assert (Permutation (filter nonempty_p recs1) (filter nonempty_p recs2)) as Hpk.
  { clear - Hp. induction Hp; simpl; auto.
    - destruct (nonempty_p x); auto.
    - destruct (nonempty_p x), (nonempty_p y); auto. constructor.
    - eapply Permutation_trans; eauto. }
  rewrite <- (Permutation_length Hp), <- (Permutation_length Hpk). destruct (_ || _); auto.
  destruct (alphabets bt) as [[[ta tamb] [aa aamb]]|]; auto.
  destruct (init bt ty gpo gpe tgpe) as [p|]; auto.
  (* the canonical orders agree up to ranks *)
  set (s1 := sort_len_name (filter nonempty_rec (with_ranks 0 recs1))).
  set (s2 := sort_len_name (filter nonempty_rec (with_ranks 0 recs2))).
  assert (map strip s1 = map strip s2) as Hs.
  { unfold s1, s2. rewrite !strip_msort, !strip_kept. apply C03_canonical_order_unique; assumption. }
  assert (forall (f : list Z -> list Z), map (fun r => f (r_res r)) s1 = map (fun r => f (r_res r)) s2) as Hres.
  { intro f. change (fun r => f (r_res r)) with (fun r => (fun q : list Z * list Z => f (snd q)) (strip r)).
    rewrite <- !(map_map strip (fun q : list Z * list Z => f (snd q))). rewrite Hs. reflexivity. }
  unfold run_tail, sort_rank. rewrite (Hres (convert ta tamb)), (Hres (convert aa aamb)).
  set (gaps := core bt p _ _).
  rewrite (Permutation_map strip (msort_perm cmp_rank (map mk_aligned (combine gaps s1)))).
  rewrite (Permutation_map strip (msort_perm cmp_rank (map mk_aligned (combine gaps s2)))).
  rewrite (strip_aligned s1 s2 gaps Hs). reflexivity.
Qed.
Print Assumptions C03_order_invariance.

(* The premise is about the first 256 bytes only: two different names that agree there are not
   distinguishable (recorded finding: the property text says "pairwise distinct names"). *)
Example C03_long_names_not_distinguishable :
  let n1 := repeat 65 256 ++ [66] in let n2 := repeat 65 256 ++ [67] in
  n1 <> n2 /\ strncmp 256 n1 n2 = 0.
Proof. split; [intro H; apply (f_equal (fun l => nth 256 l 0)) in H; vm_compute in H; discriminate | vm_compute; reflexivity]. Qed.

Example C03_nonvacuous :
  pairwise_distinguishable [([115;49], [65;67;71]); ([115;50], [65;67;71]); ([115;51], [65;67])].
Proof.
  unfold pairwise_distinguishable. repeat constructor; unfold distinguishable; vm_compute; intros; congruence.
Qed.
