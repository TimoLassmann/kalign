(* C13 - Nucleotide and protein inputs are recognised from their residue letters.
   The lemmas behind the statements are in DetectProofs.v and DetectFloatProofs.v.  The theorems are about the EXACT
   values of the binary64 table entries the running code holds (regenerated on every run), and - through a
   forward error analysis of the two binary64 sums over Flocq's IEEE-754 model (each within 2^-38 * n of the
   exact sum, n = number of counted letters) - about the floating-point computation itself:
   C13_nucleotide_detected / C13_protein_detected state what detect_alphabet RETURNS. *)
From KV Require Import Base Detect DetectProofs DetectFloatProofs.
From Coq Require Import Permutation.
Local Open Scope Z_scope.

(* per letter: DNA[c] - protein[c] (in nats): 1.2039..1.2040 for a c g t n, 11.20..11.21 for u,
   -10.28..-10.27 for protein-only letters, -0.2763..-0.2762 for the remaining letters; all table
   entries finite; both cases alike *)
Theorem C13_exact_margins :
  forallb (fun c =>
    (if is_nuc_letter c then (12039 * unit1074 <? 10000 * margin_at c) && (10000 * margin_at c <? 12040 * unit1074) else true) &&
    (if is_u_letter c then (1120 * unit1074 <? 100 * margin_at c) && (100 * margin_at c <? 1121 * unit1074) else true) &&
    (if is_protein_only c then (-1028 * unit1074 <? 100 * margin_at c) && (100 * margin_at c <? -1027 * unit1074) else true) &&
    (if is_other_letter c then (-2763 * unit1074 <? 10000 * margin_at c) && (10000 * margin_at c <? -2762 * unit1074) else true)) idx128 = true
  /\ forallb is_finite64 detect_DNA = true /\ forallb is_finite64 detect_protein = true
  /\ length detect_DNA = 128%nat /\ length detect_protein = 128%nat.
Proof.
  refine (conj _ (conj (tables_finite _ _) (conj (tables_finite _ _) (conj eq_refl eq_refl))));
    [apply forallb_forall; exact margin_class_b|apply incl_appl, incl_refl|apply incl_appr, incl_refl].
Qed.
Print Assumptions C13_exact_margins.

(* Premise 1: all residue letters among A C G T U N (either case), at least one residue:
   the DNA model wins, for all counts. *)
Theorem C13_nucleotide_exact : forall freq,
  length freq = 128%nat -> hist_only nuc_or_u 0 freq -> 0 < total_letters 0 freq ->
  0 < exact_margin freq.
Proof. intros freq Hl Hh Ht. pose proof (exact_nucleotide_margin freq (Nat.eq_le_incl _ _ Hl) Hh). pose proof unit_pos. nia. Qed.
Print Assumptions C13_nucleotide_exact.

(* Premise 2: at least a quarter protein-only letters; the protein model wins whenever
   11.21*#u + 1.2040*#acgtn < 10.27*#protein_only - in particular whenever there is no U. *)
Theorem C13_protein_exact : forall freq,
  length freq = 128%nat -> hist_nonneg freq ->
  let total := total_letters 0 freq in
  let po := class_count only_po 0 freq in
  let uc := class_count only_u 0 freq in
  let nuc := class_count is_nuc_letter 0 freq in
  0 < total -> total <= 4 * po -> nuc + uc + po <= total ->
  112100 * uc + 12040 * nuc < 102700 * po ->
  exact_margin freq < 0.
Proof.
  intros freq Hl Hh total po uc nuc _ _ _ Hu.
  pose proof (exact_upper_margin freq (Nat.eq_le_incl _ _ Hl) Hh) as H. fold po uc nuc in H. pose proof unit_pos.
  assert (unit1074 * (12040 * nuc + 112100 * uc - 102700 * po) < 0) by (apply Z.mul_pos_neg; lia).
  lia.
Qed.
Print Assumptions C13_protein_exact.

Theorem C13_protein_exact_no_u : forall freq,
  length freq = 128%nat -> hist_nonneg freq ->
  0 < total_letters 0 freq -> total_letters 0 freq <= 4 * class_count only_po 0 freq ->
  class_count is_nuc_letter 0 freq + class_count only_u 0 freq + class_count only_po 0 freq <= total_letters 0 freq ->
  class_count only_u 0 freq = 0 ->
  exact_margin freq < 0.
Proof. intros freq Hl Hh Ht Hq Hsum Hu0. apply C13_protein_exact; auto. rewrite Hu0. lia. Qed.
Print Assumptions C13_protein_exact_no_u.

(* The property as worded is false for U-rich protein (recorded finding): the model, float sums
   included, classifies UUUEUUUE as nucleotide although a quarter of its letters are protein-only. *)
Theorem C13_premise2_refuted_by_U :
  let h := histogram u_rich in
  (total_letters 0 h <=? 4 * class_count only_po 0 h) = true /\ (0 <? exact_margin h) = true /\
  detect_alphabet h = Some ALN_BIOTYPE_DNA.
Proof.
  cbv zeta. rewrite exact_margin_small.
  split; [vm_compute; reflexivity|split; [apply Z.ltb_lt, Z.mul_pos_pos; vm_compute; reflexivity|vm_compute; reflexivity]].
Qed.
Print Assumptions C13_premise2_refuted_by_U.

(* The decision does not depend on the order (or the names) of the sequences: the histogram is
   invariant under permutation, and names never enter it. *)
Theorem C13_order_independent : forall l1 l2, Permutation l1 l2 -> histogram l1 = histogram l2.
Proof.
  intros l1 l2 H. unfold histogram. apply (fold_left_perm (fun h s => fold_left count_byte s h)); [|exact H].
  intros h s1 s2. apply count_seqs_comm.
Qed.
Print Assumptions C13_order_independent.

Theorem C13_tables_case_symmetric :
  forallb (fun c => if (65 <=? c) && (c <=? 90) then
     N.eqb (nthZ 0%N detect_DNA c) (nthZ 0%N detect_DNA (c + 32)) &&
     N.eqb (nthZ 0%N detect_protein c) (nthZ 0%N detect_protein (c + 32)) else true) idx128 = true.
Proof. vm_compute. reflexivity. Qed.
Print Assumptions C13_tables_case_symmetric.

(* Non-vacuity: a histogram meeting premise 1, one meeting premise 2 *)
Example C13_nonvacuous :
  let h := histogram [[65;67;71;84;117;110]; [97;99;103]] in
  length h = 128%nat /\ (0 <? total_letters 0 h) = true /\ (0 <? exact_margin h) = true /\
  let h2 := histogram [[77;75;86;76;65;65;71;73]; [65;67;71;87]] in
  (total_letters 0 h2 <=? 4 * class_count only_po 0 h2) = true /\ (exact_margin h2 <? 0) = true.
Proof.
  (* the margins are evaluated on the scaled-down table values *)
  cbv zeta. rewrite !exact_margin_small.
  split; [vm_compute; reflexivity|]. split; [vm_compute; reflexivity|].
  split; [apply Z.ltb_lt, Z.mul_pos_pos; vm_compute; reflexivity|].
  split; [vm_compute; reflexivity|apply Z.ltb_lt, Z.mul_neg_pos; vm_compute; reflexivity].
Qed.

(* counts are C ints, 0 <= c < 2^31; the comparison of the two binary64 sums decides like the exact margin unless that margin is below 2^-37 per letter *)
Theorem C13_float_decides_like_exact : forall freq,
  length freq = 128%nat -> Forall (fun c => 0 <= c < 2 ^ 31) freq ->
  let n := total_letters 0 freq in
  1 <= n -> n * unit1074 < 2 ^ 37 * Z.abs (exact_margin freq) ->
  detect_alphabet freq = Some (if 0 <? exact_margin freq then ALN_BIOTYPE_DNA else ALN_BIOTYPE_PROTEIN).
Proof. exact float_decides_like_exact. Qed.
Print Assumptions C13_float_decides_like_exact.

(* Premise 1: only A C G T U N (either case), at least one residue: detect_alphabet returns DNA *)
Theorem C13_nucleotide_detected : forall freq,
  length freq = 128%nat -> Forall (fun c => 0 <= c < 2 ^ 31) freq -> hist_only nuc_or_u 0 freq -> 0 < total_letters 0 freq ->
  detect_alphabet freq = Some ALN_BIOTYPE_DNA.
Proof.
  intros freq Hl Hf Hh Ht. pose proof (exact_nucleotide_margin freq (Nat.eq_le_incl _ _ Hl) Hh) as H.
  pose proof (Z.mul_pos_pos _ _ Ht unit_pos) as Hnu.
  rewrite decided_by_clear_margin by (try assumption; lia).
  destruct (Z.ltb_spec 0 (exact_margin freq)); [reflexivity|lia].
Qed.
Print Assumptions C13_nucleotide_detected.

(* Premise 2 without U: at least a quarter protein-only letters: detect_alphabet returns protein *)
Theorem C13_protein_detected : forall freq,
  length freq = 128%nat -> Forall (fun c => 0 <= c < 2 ^ 31) freq ->
  0 < total_letters 0 freq -> total_letters 0 freq <= 4 * class_count only_po 0 freq ->
  class_count is_nuc_letter 0 freq + class_count only_u 0 freq + class_count only_po 0 freq <= total_letters 0 freq ->
  class_count only_u 0 freq = 0 ->
  detect_alphabet freq = Some ALN_BIOTYPE_PROTEIN.
Proof.
  intros freq Hl Hf Ht Hq Hsum Hu0. pose proof (exact_upper_margin freq (Nat.eq_le_incl _ _ Hl) (hist_nonneg_of freq Hf)) as H. rewrite Hu0 in *.
  pose proof (Z.mul_pos_pos _ _ Ht unit_pos) as Hnu.
  (* 12040 nuc - 102700 po <= 12040 (n - po) - 102700 po <= 12040 n - 114740 n / 4 = -16645 n *)
  assert (Hm : 10000 * exact_margin freq <= unit1074 * (- 16645 * total_letters 0 freq)).
  { eapply Z.le_trans; [exact H|]. apply Z.mul_le_mono_nonneg_l; [pose proof unit_pos|]; lia. }
  rewrite decided_by_clear_margin by (try assumption; lia).
  destruct (Z.ltb_spec 0 (exact_margin freq)); [lia|reflexivity].
Qed.
Print Assumptions C13_protein_detected.
