(* C09 - The scoring parameters used are exactly the ones the caller selected.
   The lemmas behind the statements are in ParamsProofs.v: init_eq reads aln_param_init as the documented values of the
   selected set with the given penalties put in. *)
From KV Require Import Base Params ParamsProofs.
From KV Require Import Generated.Doc.
From Coq Require Import String.
Local Open Scope Z_scope.

(* Each admissible (kind, type) pair selects its documented parameter set when no penalty is given
   ("not given" = any value for which [x >= 0.0] is false: negatives and NaNs). *)
Theorem C09_defaults : forall bt ty s ng1 ng2 ng3,
  In bt kinds -> In ty type_constants -> fits bt ty = Some s ->
  f32_ge0 ng1 = false -> f32_ge0 ng2 = false -> f32_ge0 ng3 = false ->
  init bt ty ng1 ng2 ng3 = Some (doc_params s).
Proof.
  intros bt ty s ng1 ng2 ng3 Hb Ht Hf H1 H2 H3. rewrite init_eq, (select_is_fits bt ty Hb Ht), Hf. cbn [option_map].
  rewrite override_none by assumption. reflexivity.
Qed.
Print Assumptions C09_defaults.

(* An explicit penalty replaces that one value and nothing else (all bit patterns, any
   combination of the other two being given or not). *)
Theorem C09_override : forall bt ty g e t p,
  init bt ty g e t = Some p ->
  exists d, (forall n1 n2 n3, f32_ge0 n1 = false -> f32_ge0 n2 = false -> f32_ge0 n3 = false ->
               init bt ty n1 n2 n3 = Some d) /\
    p_gpo p = (if f32_ge0 g then g else p_gpo d) /\
    p_gpe p = (if f32_ge0 e then e else p_gpe d) /\
    p_tgpe p = (if f32_ge0 t then t else p_tgpe d) /\
    p_subm p = p_subm d.
Proof.
  intros bt ty g e t p. rewrite init_eq. destruct (select bt ty) as [s|] eqn:E; [|discriminate]. intros [= <-].
  exists (doc_params s). repeat split. intros n1 n2 n3 H1 H2 H3. rewrite init_eq, E. cbn [option_map].
  rewrite override_none by assumption. reflexivity.
Qed.
Print Assumptions C09_override.

(* Passing a type's defaults explicitly changes nothing. *)
Theorem C09_explicit_default : forall bt ty s,
  In bt kinds -> In ty type_constants -> fits bt ty = Some s ->
  init bt ty (p_gpo (doc_params s)) (p_gpe (doc_params s)) (p_tgpe (doc_params s)) = Some (doc_params s).
Proof.
  intros bt ty s Hb Ht Hf. destruct (defaults_nonneg s) as (A & B & C).
  rewrite init_eq, (select_is_fits bt ty Hb Ht), Hf. cbn [option_map]. rewrite override_self by assumption. reflexivity.
Qed.
Print Assumptions C09_explicit_default.

(* A type that does not fit the detected kind is rejected, whatever the penalties; and the
   non-fitting combinations are exactly protein types on nucleotides and the reverse. *)
Theorem C09_mismatch : forall bt ty g e t,
  In bt kinds -> In ty type_constants -> fits bt ty = None -> init bt ty g e t = None.
Proof. intros bt ty g e t Hb Ht Hf. rewrite init_eq, (select_is_fits bt ty Hb Ht), Hf. reflexivity. Qed.
Print Assumptions C09_mismatch.

Theorem C09_mismatch_cases :
  fits ALN_BIOTYPE_DNA KALIGN_TYPE_PROTEIN = None /\
  fits ALN_BIOTYPE_DNA KALIGN_TYPE_PROTEIN_DIVERGENT = None /\
  fits ALN_BIOTYPE_PROTEIN KALIGN_TYPE_DNA = None /\
  fits ALN_BIOTYPE_PROTEIN KALIGN_TYPE_DNA_INTERNAL = None /\
  fits ALN_BIOTYPE_PROTEIN KALIGN_TYPE_RNA = None /\
  (forall bt ty, In bt kinds -> In ty type_constants -> fits bt ty = None ->
     (bt = ALN_BIOTYPE_DNA /\ (ty = KALIGN_TYPE_PROTEIN \/ ty = KALIGN_TYPE_PROTEIN_DIVERGENT)) \/
     (bt = ALN_BIOTYPE_PROTEIN /\ (ty = KALIGN_TYPE_DNA \/ ty = KALIGN_TYPE_DNA_INTERNAL \/ ty = KALIGN_TYPE_RNA))).
Proof.
  repeat split; try reflexivity.
  refine (in_kinds_types _ _). repeat first [apply Forall_cons|apply Forall_nil]; vm_compute; intro H; try discriminate H; tauto.
Qed.
Print Assumptions C09_mismatch_cases.

(* Every documented --type word selects the type of that name. *)
Theorem C09_type_words : forall w, In w doc_type_words ->
  exists t, doc_word_type w = Some t /\ set_aln_type (Some (bytes_of_string w)) = Some t.
Proof. exact type_words. Qed.
Print Assumptions C09_type_words.

Theorem C09_five_words_documented :
  forall w, In w ["rna"; "dna"; "internal"; "protein"; "divergent"]%string -> In w doc_type_words.
Proof. intros w H. simpl in H. vm_compute. intuition. Qed.
Print Assumptions C09_five_words_documented.

(* Options that are not given reach the library as "not given". *)
Theorem C09_cli_defaults :
  cli_args None None None None = Some (KALIGN_TYPE_UNDEFINED, cli_default_penalty, cli_default_penalty, cli_default_penalty)
  /\ f32_ge0 cli_default_penalty = false.
Proof. split; reflexivity. Qed.
Print Assumptions C09_cli_defaults.

Example C09_defaults_nonvacuous :
  In ALN_BIOTYPE_DNA kinds /\ In KALIGN_TYPE_DNA_INTERNAL type_constants /\
  fits ALN_BIOTYPE_DNA KALIGN_TYPE_DNA_INTERNAL = Some PS_DNA_INTERNAL /\
  init ALN_BIOTYPE_DNA KALIGN_TYPE_DNA_INTERNAL cli_default_penalty (f32_of_Z 3) cli_default_penalty
    = Some (mkParams (f32_of_Z 8) (f32_of_Z 3) (f32_of_Z 8) (p_subm (doc_params PS_DNA))).
Proof. vm_compute. intuition. Qed.
