(* C07 - The DP kernels return the optimum whenever it is certifiably unique.
   PARTIAL.  What is proved here holds for EVERY arithmetic the kernel text is run over (binary32
   included, for ALL parameter values) and concerns the control structure of the three kernels and of
   the Hirschberg controller; the optimality statement itself is not a theorem.  It is decided on every run by
   (i) the bit-exact correspondence of the executable binary32 model (Kernels.v, Pipeline.v - Flocq arithmetic,
   extracted) with the implementation on every merge's raw and expanded path, for the sequence-sequence, sequence-profile and
   profile-profile kernels, and (ii) planted alignments whose unique optimality is certified by an
   exact full-matrix computation and which the implementation must return exactly (DESIGN C07). *)
From Coq Require Import ZArith List Bool Lia.
From KV Require Import FP Kernels Pipeline KernelProofs PipelineProofs CostProofs.
Import ListNotations.
Local Open Scope Z_scope.

(* the rolling array of a pass has one cell per column plus the border cell: every f[j] / b[j] the
   meetup reads exists *)
Theorem C07_pass_shape : forall (A : alg) (R C : Type) (K : costs A R C) rows cols fi li s0,
  length (pass A R C K fi li s0 rows cols) = S (length cols).
Proof. exact pass_length. Qed.
Print Assumptions C07_pass_shape.

(* whatever the numbers, a meetup names a column of its sub-problem and one of the six transition
   codes (or -1/-1), and the transitions that write path[mid+1] = meet+1 are never chosen at the last column *)
Theorem C07_meetup_range : forall (A : alg) (M : mcosts A) sz el startb endb fs bs, startb < endb ->
  Z.of_nat (length fs) = endb - startb + 1 -> length bs = length fs ->
  okbest A startb endb (meetup A M sz el startb endb fs bs).
Proof. exact meetup_range. Qed.
Print Assumptions C07_meetup_range.

(* the Hirschberg recursion terminates within rows+columns+1 levels (rows alone do not decrease:
   transition a->ga keeps the row) and every path[] write lies inside the sub-problem *)
Theorem C07_recursion_terminates : forall (A : alg) (Kn : kernel A) LB,
  (forall starta mid enda startb endb f0 b0, 0 <= startb -> startb < endb -> endb <= LB ->
     okbest A startb endb (k_meetup A Kn mid startb endb (k_forward A Kn starta mid startb endb f0) (k_backward A Kn mid enda startb endb b0))) ->
  forall fuel starta enda startb endb f0 b0, enough fuel starta enda startb endb -> 0 <= startb -> endb <= LB ->
  exists ws, runner A Kn fuel starta enda startb endb f0 b0 = Some ws /\ writes_in ws starta enda startb endb.
Proof. exact runner_total. Qed.
Print Assumptions C07_recursion_terminates.

(* all three kernel instances meet that premise: aln_runner on a fresh aln_mem always ends and leaves a
   path - for all operands and ALL parameter values (huge, infinite and NaN penalties included: then the
   path may be all -1, which is where the recorded finding C05-huge-gap-penalty starts) *)
Theorem C07_seqseq_runs : forall (A : alg) (P : nparams A) seq1 seq2,
  exists p, raw_path A (ss_kernel A P seq1 seq2) (Z.of_nat (length seq1)) (Z.of_nat (length seq2)) = Some p.
Proof. intros A P seq1 seq2. apply raw_path_total; try lia. apply ss_meet_ok. Qed.
Print Assumptions C07_seqseq_runs.
Theorem C07_seqprofile_runs : forall (A : alg) (P : nparams A) prof1 seq2 sip len_a, 0 <= len_a ->
  exists p, raw_path A (sp_kernel A P prof1 seq2 sip) len_a (Z.of_nat (length seq2)) = Some p.
Proof. intros A P prof1 seq2 sip len_a H. apply raw_path_total; try lia. apply sp_meet_ok. Qed.
Print Assumptions C07_seqprofile_runs.
Theorem C07_profileprofile_runs : forall (A : alg) prof1 prof2 len_a, 0 <= len_a -> (2 <= length prof2)%nat ->
  exists p, raw_path A (pp_kernel A prof1 prof2) len_a (Z.of_nat (length prof2) - 2) = Some p.
Proof. intros A prof1 prof2 len_a H L. apply raw_path_total; try lia. apply pp_meet_ok. exact L. Qed.
Print Assumptions C07_profileprofile_runs.
Print Assumptions C07_seqseq_runs.

(* The full statement - "if an alignment beats every other alignment of a and b by a safe margin under every
   admissible costing of terminal runs, raw_path returns it" - needs the exact objective of DESIGN C07 and the
   Gotoh/Hirschberg optimality argument over the exact arithmetic; it is NOT stated as a theorem here. *)

(* A necessary condition of optimality that concerns the kernel text only: the meetup must charge a gap crossing the middle
   row what the passes charge for the same step.  The gb update of cell j of a row uses the terminal extension exactly in
   the first cell of a pass that starts at the left border and in the last cell of one that ends at the right border ... *)
Theorem C07_pass_terminal_cells : forall (A : alg) (R C : Type) (K : costs A R C) cells cols fi li r j,
  length cells = S (length cols) -> (1 <= length cols)%nat -> (j <= length cols)%nat ->
  c_gb A (nth j (row_step A R C K fi li cells cols r) (dead A)) =
  gb_update A R C K (pass_terminal fi li (length cols) j) (nth j cells (dead A)) r.
Proof.
  intros A R C K cells cols fi li r j L N J. destruct cells as [|o0 old]; [discriminate|]. cbn [length] in L. injection L as L.
  unfold row_step. destruct j as [|j].
  - cbn [nth]. unfold pass_terminal. destruct cols as [|c cols']; [cbn [length] in N; lia|]. cbn [length Nat.eqb andb orb].
    rewrite orb_false_r. unfold gb_update, c_gb. cbn [snd]. destruct fi; reflexivity.
  - cbn [nth]. rewrite row_cells_gb by lia. unfold pass_terminal. cbn [Nat.eqb andb orb]. reflexivity.
Qed.
Print Assumptions C07_pass_terminal_cells.

(* ... and the meetup's scan (meet_col with the flag i = 0 below endb, meet_last at endb) uses it at exactly the same
   columns, for every sub-problem.  The condition the C text used before fix b57ad5d ("the sub-problem starts at column 0")
   does not have this property: with it Hirschberg returned non-optimal alignments (DESIGN section 11). *)
Theorem C07_meetup_and_passes_agree_on_terminal_columns : forall startb endb len_b i,
  0 <= startb -> startb < endb -> endb <= len_b -> startb <= i <= endb ->
  meet_terminal_col endb len_b i = pass_terminal_col startb endb len_b i.
Proof.
  intros startb endb len_b i H0 H1 H2 H3. unfold meet_terminal_col, pass_terminal_col, pass_terminal.
  rewrite !negb_involutive.
  destruct (Z.ltb_spec i endb) as [L|G].
  - destruct (Nat.eqb_spec (Z.to_nat (i - startb)) (Z.to_nat (endb - startb))) as [E|_]; [lia|]. cbn [andb]. rewrite orb_false_r.
    destruct (Nat.eqb_spec (Z.to_nat (i - startb)) 0) as [E|N]; destruct (Z.eqb_spec i 0), (Z.eqb_spec startb 0); cbn [andb]; try reflexivity; lia.
  - assert (i = endb) as -> by lia.
    destruct (Nat.eqb_spec (Z.to_nat (endb - startb)) 0) as [E|_]; [lia|]. cbn [andb orb]. rewrite Nat.eqb_refl. reflexivity.
Qed.
Print Assumptions C07_meetup_and_passes_agree_on_terminal_columns.

Theorem C07_meetup_scan_flags : forall (A : alg) (M : mcosts A) sz el startb endb i f b fs bs best,
  fs <> [] -> bs <> [] ->
  meet_scan A M sz el startb endb i (f :: fs) (b :: bs) best =
  meet_scan A M sz el startb endb (i + 1) fs bs (meet_col A M (i =? 0) (tiebreak A startb endb i) i f b best).
Proof. exact meet_scan_flags. Qed.
Print Assumptions C07_meetup_scan_flags.

Theorem C07_old_meetup_condition_refuted :
  exists startb endb len_b i, 0 <= startb /\ startb < endb /\ endb <= len_b /\ startb <= i < endb /\
    (startb =? 0) <> pass_terminal_col startb endb len_b i.
Proof. exact old_meetup_condition_refuted. Qed.
Print Assumptions C07_old_meetup_condition_refuted.

(* Non-vacuity / instance by evaluation: two DNA sequences under the 'dna' parameter set (5/-4, gpo 8,
   gpe 6, tgpe 0): the model returns the path with the single deletion *)
Example C07_instance :
  let f := fun z => f32_of_Z z in
  let P := mkNP alg_f32 (f 8) (f 6) (f 0) (map (fun i => map (fun j => if (i =? j)%nat then f 5 else f (-4)) (seq 0 23)) (seq 0 23)) in
  raw_path alg_f32 (ss_kernel alg_f32 P [0;1;2;3;0;1] [0;1;2;2;3;0;1]) 6 7 = Some [1; 2; 3; 5; 6; 7].
Proof. vm_compute. reflexivity. Qed.
