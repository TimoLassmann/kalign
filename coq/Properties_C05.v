(* C05 - No memory error, crash or hang on any input; failures are reported as failures.
   The proofs stand under the statements; the lemmas they use (table ranges, reader invariants) are in SafetyProofs.v; the path counts come
   from PathProofs.v and WeaveProofs.v.
   PARTIAL by nature (DESIGN C05): what is proved is the logic that decides whether an access is in
   range, what the readers hand on, and which exit status is produced - for every byte string and
   every option value, on the executable model.  What only the machine can show (allocator state,
   real uninitialised bytes, int overflow, libc) is left to the sanitizer runs of the
   correspondence harness, which are tests.  All model functions are structurally recursive Coq
   functions (in places on a fuel argument: msort_fuel, digits_fuel, the Hirschberg runner): on the model side
   "terminates" holds by construction. *)
From KV Require Import ListFacts Base Params Weave WeaveProofs WeaveCheck PathProofs Formats FormatsProofs2 Api Cli SafetyProofs.
Local Open Scope Z_scope.

(* Every byte of a sequence - not only the letters the readers accept - is mapped to a class that
   is a valid index of the tables it is used with: Peq[13]/B[13] for the tree alphabet,
   subm[23][23] and the profile columns for the alignment alphabet.  The alphabet tables are
   regenerated from the built library on every run. *)
Theorem C05_residue_codes_defined : forall bt ta tamb aa aamb,
  alphabets bt = Some ((ta, tamb), (aa, aamb)) ->
  forall c : Z, 0 <= code_of ta tamb c < tree_L bt /\ 0 <= code_of aa aamb c < aln_L bt.
Proof.
  intros bt ta tamb aa aamb H c.
  destruct tables_in_range as (R1 & R2 & R3 & A1 & A2 & A3).
  apply andb_true_iff in A1 as [A1 A1']. apply andb_true_iff in A2 as [A2 A2']. apply andb_true_iff in A3 as [A3 A3'].
  apply Z.leb_le in A1, A2, A3. apply Z.ltb_lt in A1', A2', A3'.
  unfold alphabets, tree_L, aln_L in *.
  destruct (bt =? ALN_BIOTYPE_DNA) eqn:E1.
  - inversion H; subst. split; apply code_of_range; auto; lia.
  - destruct (bt =? ALN_BIOTYPE_PROTEIN); [|discriminate].
    inversion H; subst. split; apply code_of_range; auto; lia.
Qed.
Print Assumptions C05_residue_codes_defined.

Theorem C05_converted_sequences_index_in_range : forall bt ta tamb aa aamb res,
  alphabets bt = Some ((ta, tamb), (aa, aamb)) ->
  Forall (fun k => 0 <= k < 13) (convert ta tamb res) /\ Forall (fun k => 0 <= k < 23) (convert aa aamb res).
Proof.
  intros bt ta tamb aa aamb res H. unfold convert.
  split; apply Forall_forall; intros k I; apply in_map_iff in I as (c & <- & _);
    destruct (C05_residue_codes_defined _ _ _ _ _ H c) as [C1 C2]; unfold tree_L, aln_L in *;
    destruct (bt =? ALN_BIOTYPE_DNA); lia.
Qed.
Print Assumptions C05_converted_sequences_index_in_range.

(* kalign_read_input over any list of inputs, each any byte string: an error, "nothing
   recognisable", or at least two records each carrying exactly len+1 gap counters (the invariant
   every later index computation on gaps[] relies on) *)
Theorem C05_read_outcome : forall files : list (list Z),
  match read_inputs files with
  | RErr => True
  | RNone => True
  | ROk m => (2 <= length (i_recs m))%nat /\ Forall (fun r => length (rr_gaps r) = S (length (rr_res r))) (i_recs m)
  end.
Proof.
  intro files. unfold read_inputs.
  pose proof (fold_left_inv acc_inv read_step read_step_inv files (Some None) I) as Inv.
  destruct (fold_left read_step files (Some None)) as [[m|]|]; auto.
Qed.
Print Assumptions C05_read_outcome.

(* the expanded path of every well-formed raw path fits the len_a+len_b+2 cells of path[] *)
Theorem C05_expanded_path_fits : forall lb path ops,
  kpath_wfb lb path = true -> add_gap_info lb path = Some ops ->
  (length ops + 2 <= length path + Z.to_nat lb + 2)%nat /\ (1 <= length ops)%nat.
Proof.
  intros lb path ops W H. destruct (expand_path_counts lb path W) as (ops' & H' & F).
  rewrite H in H'. inversion H'; subst ops'.
  pose proof (ops_fit_len _ _ _ F) as T. destruct F as (F1 & F2 & F3). rewrite map_length in T.
  split; [lia|].
  unfold kpath_wfb in W. destruct path as [|p1 ps]; [discriminate|]. simpl in F1. lia.
Qed.
Print Assumptions C05_expanded_path_fits.

(* every sequence line of the Clustal/MSF writers, with its terminating NUL, fits the line buffer
   of max(256, max_name_len+5+60+2) bytes, whatever the names *)
Theorem C05_writer_line_fits : forall rows nr chunk,
  In nr rows -> (length chunk <= 60)%nat ->
  (length (block_line (max_name_len rows) (fst nr) chunk) + 1 <= Nat.max 256 (max_name_len rows + 5 + 60 + 2))%nat.
Proof.
  intros rows nr chunk I Hc. pose proof (max_name_len_ge rows nr I) as Hn.
  unfold block_line. rewrite !app_length, repeat_length. lia.
Qed.
Print Assumptions C05_writer_line_fits.

(* exit status: success with an alignment only if every stage succeeded; any failing stage of an
   aligning invocation gives EXIT_FAILURE *)
Theorem C05_success_means_written : forall a reads run write,
  cli_main a reads run write = Exit0_written ->
  Forall (fun s => s = SOk) reads /\ run = SOk /\ write = SOk /\ (1 <= a_nthreads a) /\ a_ninputs a <> 0%nat.
Proof.
  intros a reads run write. unfold cli_main.
  destruct (a_version a); [discriminate|]. destruct (a_showw a); [discriminate|]. destruct (a_help a); [discriminate|].
  destruct (a_nthreads a <? 1) eqn:T; [discriminate|]. destruct (a_ninputs a =? 0)%nat eqn:N; [discriminate|].
  destruct (negb (format_string_ok (a_format a))); [discriminate|].
  destruct (set_aln_type (a_type a)); [|discriminate].
  unfold run_kalign_status. destruct (forallb _ reads) eqn:R; [|discriminate].
  destruct run; [|discriminate]. destruct write; [|discriminate]. intros _.
  apply Z.ltb_ge in T. apply Nat.eqb_neq in N. repeat split; auto; try lia.
  rewrite forallb_forall in R. apply Forall_forall. intros s Hs. specialize (R s Hs). destruct s; [reflexivity|discriminate].
Qed.
Print Assumptions C05_success_means_written.

Theorem C05_failure_is_reported : forall a reads run write,
  a_version a = false -> a_showw a = false -> a_help a = false -> a_ninputs a <> 0%nat ->
  (a_nthreads a < 1 \/ format_string_ok (a_format a) = false \/ set_aln_type (a_type a) = None \/
   In SFail reads \/ run = SFail \/ write = SFail) ->
  exit_code (cli_main a reads run write) = 1.
Proof.
  intros a reads run write V W H N F. unfold cli_main. rewrite V, W, H.
  destruct (a_nthreads a <? 1) eqn:T; [reflexivity|]. apply Z.ltb_ge in T.
  apply Nat.eqb_neq in N. rewrite N.
  destruct (format_string_ok (a_format a)) eqn:Fm; simpl; [|reflexivity].
  destruct (set_aln_type (a_type a)) eqn:Ty; [|reflexivity].
  unfold run_kalign_status.
  destruct (forallb _ reads) eqn:R; [|reflexivity].
  destruct F as [F|[F|[F|[F|[F|F]]]]]; try lia; try discriminate.
  - rewrite forallb_forall in R. specialize (R _ F). discriminate.
  - subst run. reflexivity.
  - subst write. destruct run; reflexivity.
Qed.
Print Assumptions C05_failure_is_reported.

(* Non-vacuity: a protein input with J, O, U and a byte >= 0x80 converts to defined classes; a
   concrete malformed file is rejected and a concrete good one accepted *)
Example C05_nonvacuous :
  (exists ta tamb aa aamb, alphabets ALN_BIOTYPE_PROTEIN = Some ((ta, tamb), (aa, aamb)) /\
     convert ta tamb [74; 79; 85; -56; 65] = [12; 12; 12; 12; 0] /\ convert aa aamb [74; 79; 85; -56; 65] = [22; 22; 22; 22; 0]) /\
  read_inputs [[67; 76; 85; 83; 84; 65; 76; 32; 87; 32; 58; 49]] = RErr /\
  (exists m, read_inputs [[62; 97; 10; 65; 67; 10; 62; 98; 10; 65; 45; 67; 10]] = ROk m /\ length (i_recs m) = 2%nat).
Proof.
  split; [do 4 eexists; split; [reflexivity|]; vm_compute; split; reflexivity|].
  split; [vm_compute; reflexivity|]. eexists. vm_compute. split; reflexivity.
Qed.
