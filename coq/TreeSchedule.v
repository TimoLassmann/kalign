(* The serial schedule of the progressive run respects the guide tree, for EVERY guide tree.
   label_internal numbers the internal nodes in post-order from numseq, create_tasks lists one task (a, b, c) per
   internal node, sort_tasks(TASK_ORDER_TREE) orders them by c.  Theorem: in the sorted list every task finds both of
   its operands complete (a leaf, or the result of an EARLIER task), no operand is used twice, and every result label is
   fresh.  This is the structural half of the "valid task list" premise of C01/C10 and the serial instance of C02's
   "no merge starts before both groups are complete". *)
From Coq Require Import ZArith List Lia Permutation Sorted.
From KV Require Import ListFacts WeaveProofs Pipeline CladeTasks.
Import ListNotations.

Definition tc (x : nat * nat * nat) : nat := snd x.
Definition kids (T : list (nat * nat * nat)) : list nat := flat_map (fun x => [fst (fst x); snd (fst x)]) T.

Lemma kids_app A B : kids (A ++ B) = kids A ++ kids B.
Proof. unfold kids. apply flat_map_app. Qed.

Lemma In_kids k T : In k (kids T) <-> exists a b c, In (a, b, c) T /\ (k = a \/ k = b).
Proof.
  unfold kids. rewrite in_flat_map. split.
  - intros ([[a b] c] & H & [<-|[<-|[]]]); eauto 7.
  - intros (a & b & c & H & Hk). exists (a, b, c). split; [exact H|]. destruct Hk as [->| ->]; cbn; auto.
Qed.

Lemma In_tcs z T : In z (map tc T) <-> exists a b, In (a, b, z) T.
Proof.
  rewrite in_map_iff. split; [intros ([[a b] c] & <- & H); eauto|intros (a & b & H); exists (a, b, z); auto].
Qed.

Lemma root_kids_perm t : Permutation (lid t :: kids (tasks_of t)) (ids t).
Proof.
  induction t as [i|c l IHl r IHr]; [cbn; apply Permutation_refl|].
  cbn [tasks_of ids lid]. change (kids ((lid l, lid r, c) :: tasks_of l ++ tasks_of r)) with (lid l :: lid r :: kids (tasks_of l ++ tasks_of r)).
  rewrite kids_app. constructor.
  rewrite <- IHl, <- IHr. cbn [app].
  constructor. apply Permutation_middle.
Qed.

Lemma tc_in_ids t : forall x, In x (tasks_of t) -> In (tc x) (ids t).
Proof.
  intros [[a b] c] Hx. pose proof (tasks_in t) as H. rewrite Forall_forall in H. specialize (H _ Hx). cbn in H. apply H.
Qed.

Lemma tcs_nodup t : NoDup (ids t) -> NoDup (map tc (tasks_of t)).
Proof.
  induction t as [i|c l IHl r IHr]; intros H; [constructor|].
  cbn [ids] in H. inversion H as [|? ? Hc Hrest]; subst. apply NoDup_app_iff in Hrest as (Hl & Hr & Hd).
  cbn [tasks_of map]. constructor.
  - intros Q. apply in_map_iff in Q as (x & E & Hx). apply in_app_or in Hx. apply Hc. apply in_or_app.
    assert (c = tc x) as -> by (rewrite E; reflexivity).
    destruct Hx as [Hx|Hx]; [left|right]; apply tc_in_ids; exact Hx.
  - rewrite map_app. apply NoDup_app_iff. split; [exact (IHl Hl)|]. split; [exact (IHr Hr)|].
    intros z Ha Hb. apply in_map_iff in Ha as (x & Ex & Hx). apply in_map_iff in Hb as (y & Ey & Hy).
    apply (Hd z); [rewrite <- Ex; apply tc_in_ids; exact Hx|rewrite <- Ey; apply tc_in_ids; exact Hy].
Qed.

Fixpoint lleaves (t : ltree) : list nat := match t with LLeaf i => [i] | LNode _ l r => lleaves l ++ lleaves r end.

Lemma root_leaf_or_task t : In (lid t) (lleaves t) \/ exists a b, In (a, b, lid t) (tasks_of t).
Proof. destruct t as [i|c l r]; [left; left; reflexivity|right; exists (lid l), (lid r); left; reflexivity]. Qed.

Lemma kid_leaf_or_task t : forall a, In a (kids (tasks_of t)) -> In a (lleaves t) \/ exists a1 a2, In (a1, a2, a) (tasks_of t).
Proof.
  induction t as [i|c l IHl r IHr]; intros a Ha; [destruct Ha|].
  cbn [tasks_of] in Ha. change (kids ((lid l, lid r, c) :: tasks_of l ++ tasks_of r)) with (lid l :: lid r :: kids (tasks_of l ++ tasks_of r)) in Ha.
  rewrite kids_app in Ha. cbn [lleaves tasks_of].
  assert (forall s, (In a (lleaves s) \/ exists a1 a2, In (a1, a2, a) (tasks_of s)) -> (s = l \/ s = r) ->
          In a (lleaves l ++ lleaves r) \/ exists a1 a2, In (a1, a2, a) ((lid l, lid r, c) :: tasks_of l ++ tasks_of r)) as K.
  { intros s [Q|(a1 & a2 & Q)] [->| ->].
    - left. apply in_or_app. left. exact Q.
    - left. apply in_or_app. right. exact Q.
    - right. exists a1, a2. right. apply in_or_app. left. exact Q.
    - right. exists a1, a2. right. apply in_or_app. right. exact Q. }
  destruct Ha as [<-|[<-|Ha]].
  - apply (K l); [apply root_leaf_or_task|left; reflexivity].
  - apply (K r); [apply root_leaf_or_task|right; reflexivity].
  - apply in_app_or in Ha as [Ha|Ha]; [apply (K l); [apply IHl; exact Ha|left; reflexivity]|apply (K r); [apply IHr; exact Ha|right; reflexivity]].
Qed.

Lemma label_leaves t : forall next, lleaves (fst (label t next)) = leaves t.
Proof.
  induction t as [i|l IHl r IHr]; intros next; [reflexivity|].
  cbn [label]. specialize (IHl next). destruct (label l next) as [l' n1]. specialize (IHr n1). destruct (label r n1) as [r' n2].
  cbn [fst lleaves leaves] in *. rewrite IHl, IHr. reflexivity.
Qed.

Lemma label_order t : forall next, (forall i, In i (leaves t) -> i < next) ->
  Forall (fun x => fst (fst x) < tc x /\ snd (fst x) < tc x /\ next <= tc x) (tasks_of (fst (label t next))).
Proof.
  induction t as [i|l IHl r IHr]; intros next Hlt; [constructor|].
  pose proof (label_spec l next) as (A1 & A2 & _).
  cbn [label]. specialize (IHl next). destruct (label l next) as [l' n1] eqn:El.
  pose proof (label_spec r n1) as (B1 & B2 & _).
  specialize (IHr n1). destruct (label r n1) as [r' n2] eqn:Er.
  cbn [fst snd] in *. cbn [tasks_of].
  assert (forall i, In i (leaves l) -> i < next) as Hl by (intros i Hi; apply Hlt; cbn [leaves]; apply in_or_app; left; exact Hi).
  assert (forall i, In i (leaves r) -> i < n1) as Hr.
  { intros i Hi. assert (i < next) by (apply Hlt; cbn [leaves]; apply in_or_app; right; exact Hi). lia. }
  constructor.
  - unfold tc. cbn [fst snd]. split; [|split; [|lia]].
    + destruct (A2 _ (lid_in l')) as [Q|Q]; [specialize (Hl _ Q); lia|lia].
    + destruct (B2 _ (lid_in r')) as [Q|Q]; [specialize (Hr _ Q); lia|lia].
  - apply Forall_app. split; [apply IHl; exact Hl|].
    eapply Forall_impl; [|apply IHr; exact Hr]. cbn beta. intros x (X1 & X2 & X3). repeat split; [exact X1|exact X2|lia].
Qed.

Lemma insert_task_perm x l : Permutation (insert_task x l) (x :: l).
Proof.
  induction l as [|y l IH]; cbn [insert_task]; [apply Permutation_refl|].
  destruct (snd x <=? snd y)%nat; [apply Permutation_refl|].
  eapply Permutation_trans; [apply perm_skip; exact IH|apply perm_swap].
Qed.
Lemma sort_tasks_perm l : Permutation (sort_tasks l) l.
Proof.
  induction l as [|x l IH]; [apply Permutation_refl|]. cbn [sort_tasks fold_right].
  eapply Permutation_trans; [apply insert_task_perm|apply perm_skip; exact IH].
Qed.
Definition tle (x y : nat * nat * nat) : Prop := tc x <= tc y.
Lemma insert_task_sorted x l : StronglySorted tle l -> StronglySorted tle (insert_task x l).
Proof.
  induction 1 as [|y l Hs IH Hy]; cbn [insert_task]; [constructor; constructor|].
  destruct (Nat.leb_spec (snd x) (snd y)) as [Hle|Hgt].
  - constructor; [constructor; assumption|]. constructor; [exact Hle|].
    eapply Forall_impl; [|exact Hy]. unfold tle, tc in *. intros z Hz. lia.
  - constructor; [exact IH|]. apply (Permutation_Forall (Permutation_sym (insert_task_perm x l))).
    constructor; [unfold tle, tc; lia|exact Hy].
Qed.
Lemma sort_tasks_sorted l : StronglySorted tle (sort_tasks l).
Proof. induction l as [|x l IH]; [constructor|]. cbn [sort_tasks fold_right]. apply insert_task_sorted. exact IH. Qed.

Lemma sorted_app_inv {A} (R : A -> A -> Prop) : forall pre x post, StronglySorted R (pre ++ x :: post) ->
  Forall (fun y => R y x) pre /\ Forall (R x) post.
Proof.
  induction pre as [|p pre IH]; intros x post H; cbn [app] in H; apply StronglySorted_inv in H as (Hs & Hf).
  - split; [constructor|exact Hf].
  - destruct (IH _ _ Hs) as (I1 & I2). split; [|exact I2]. constructor; [|exact I1].
    rewrite Forall_forall in Hf. apply Hf. apply in_or_app. right. left. reflexivity.
Qed.

(* What the proofs use of a schedule L over the inputs 0..n-1 whose last result is root: sorted by result label,
   every label produced once and consumed at most once (the root never), operands below their result, every
   operand an input or a result.  The serial schedule of a labelled guide tree is one (tree_schedule). *)
Record schedule (n root : nat) (L : list (nat * nat * nat)) : Prop := {
  sc_sorted : StronglySorted tle L;
  sc_tcs : NoDup (map tc L);
  sc_kids : NoDup (root :: kids L);
  sc_heap : Forall (fun x => fst (fst x) < tc x /\ snd (fst x) < tc x /\ n <= tc x) L;
  sc_src : forall k, In k (kids L) -> k < n \/ In k (map tc L)
}.

Lemma tree_schedule t n : NoDup (leaves t) -> (forall i, In i (leaves t) -> i < n) ->
  schedule n (lid (fst (label t n))) (sort_tasks (tasks_of (fst (label t n)))).
Proof.
  intros Hnd Hlt. set (lt := fst (label t n)). set (T := tasks_of lt).
  assert (NoDup (ids lt)) as Hids by (apply label_nodup; assumption).
  pose proof (sort_tasks_perm T) as HP.
  assert (Permutation (kids (sort_tasks T)) (kids T)) as HK by (unfold kids; rewrite HP; reflexivity).
  constructor.
  - apply sort_tasks_sorted.
  - rewrite HP. apply tcs_nodup, Hids.
  - rewrite HK. exact (Permutation_NoDup (Permutation_sym (root_kids_perm lt)) Hids).
  - apply sort_tasks_Forall, label_order, Hlt.
  - intros k Hk. apply (Permutation_in _ HK) in Hk. destruct (kid_leaf_or_task lt k Hk) as [Q|(k1 & k2 & Q)].
    + left. unfold lt in Q. rewrite label_leaves in Q. apply Hlt, Q.
    + right. rewrite HP. apply In_tcs. eauto.
Qed.

Lemma schedule_respects n root L : schedule n root L ->
  forall pre a b c post, L = pre ++ (a, b, c) :: post ->
  (a < n \/ exists a1 a2, In (a1, a2, a) pre) /\
  (b < n \/ exists b1 b2, In (b1, b2, b) pre) /\
  a <> b /\ n <= c /\
  (forall x y z, In (x, y, z) pre -> z <> c /\ x <> a /\ x <> b /\ y <> a /\ y <> b).
Proof.
  intros [HS Hcs Hks Hh Hsrc] pre a b c post ->. rewrite Forall_forall in Hh.
  destruct (Hh (a, b, c)) as (Oa & Ob & Oc); [apply in_elt|]. unfold tc in Oa, Ob, Oc. cbn [fst snd] in Oa, Ob, Oc.
  apply NoDup_cons_iff in Hks as (_ & Hks). rewrite kids_app in Hks.
  change (kids ((a, b, c) :: post)) with (a :: b :: kids post) in *.
  apply NoDup_app_iff in Hks as (_ & Hks' & Hkd).
  (* an operand that is not an input was produced, and not by this task or a later one: those results are above it *)
  assert (forall k, In k [a; b] -> k < n \/ exists k1 k2, In (k1, k2, k) pre) as Hprod.
  { intros k Hk. assert (k < c) as Hkc by (destruct Hk as [<-|[<-|[]]]; assumption).
    destruct (Hsrc k) as [Q|Q]; [rewrite kids_app; apply in_or_app; right; cbn in Hk |- *; tauto|left; exact Q|right].
    apply In_tcs in Q as (k1 & k2 & Q). exists k1, k2. apply in_app_or in Q as [Q|[Q|Q]]; [exact Q| |].
    - inversion Q; subst. lia.
    - pose proof (proj2 (sorted_app_inv _ _ _ _ HS)) as Hpost. rewrite Forall_forall in Hpost. specialize (Hpost _ Q).
      unfold tle, tc in Hpost. cbn [snd] in Hpost. lia. }
  split; [apply Hprod; left; reflexivity|]. split; [apply Hprod; right; left; reflexivity|].
  split; [inversion Hks' as [|? ? Hn _]; subst; intros ->; apply Hn; left; reflexivity|]. split; [exact Oc|].
  intros x y z Hxyz.
  assert (In x (kids pre) /\ In y (kids pre)) as (Kx & Ky) by (split; apply In_kids; exists x, y, z; auto).
  split.
  { rewrite map_app in Hcs. cbn [map] in Hcs. intros ->. apply NoDup_remove_2 in Hcs. apply Hcs, in_or_app. left.
    apply In_tcs. eauto. }
  assert (forall k, In k (kids pre) -> k <> a /\ k <> b) as Hfresh
    by (intros k Hk; split; intros ->; apply (Hkd _ Hk); cbn; auto).
  destruct (Hfresh _ Kx). destruct (Hfresh _ Ky). auto.
Qed.

Theorem tree_schedule_respects_dependencies : forall t n,
  NoDup (leaves t) -> (forall i, In i (leaves t) -> i < n) ->
  forall pre a b c post,
  sort_tasks (tasks_of (fst (label t n))) = pre ++ (a, b, c) :: post ->
  (a < n \/ exists a1 a2, In (a1, a2, a) pre) /\
  (b < n \/ exists b1 b2, In (b1, b2, b) pre) /\
  a <> b /\ n <= c /\
  (forall x y z, In (x, y, z) pre -> z <> c /\ x <> a /\ x <> b /\ y <> a /\ y <> b).
Proof. intros t n Hnd Hlt. exact (schedule_respects n _ _ (tree_schedule t n Hnd Hlt)). Qed.

(* every label that is produced is consumed later, except the root: exactly one group remains *)
Theorem tree_schedule_is_complete : forall t n,
  NoDup (leaves t) -> (forall i, In i (leaves t) -> i < n) ->
  let L := sort_tasks (tasks_of (fst (label t n))) in
  length L = length (leaves t) - 1 /\
  Permutation (lid (fst (label t n)) :: kids L) (leaves t ++ map tc L).
Proof.
  intros t n Hnd Hlt L.
  set (lt := fst (label t n)) in *.
  assert (forall s, length (tasks_of s) = length (lleaves s) - 1 /\ 1 <= length (lleaves s)) as Hlen.
  { induction s as [i|c l (IHl & Ll) r (IHr & Lr)]; [cbn; lia|]. cbn [tasks_of lleaves length]. rewrite !app_length. lia. }
  assert (forall s, Permutation (ids s) (lleaves s ++ map tc (tasks_of s))) as Hids.
  { induction s as [i|c l IHl r IHr]; [cbn; apply Permutation_refl|].
    cbn [ids lleaves tasks_of map]. rewrite map_app. rewrite IHl, IHr.
    change (tc (lid l, lid r, c)) with c.
    eapply Permutation_trans; [|apply Permutation_middle]. constructor.
    rewrite <- !app_assoc. apply Permutation_app_head. rewrite !app_assoc. apply Permutation_app_tail. apply Permutation_app_comm. }
  split.
  - unfold L. rewrite (Permutation_length (sort_tasks_perm _)). fold lt. rewrite (proj1 (Hlen lt)). unfold lt. rewrite label_leaves. reflexivity.
  - pose proof (sort_tasks_perm (tasks_of lt)) as HP. fold L in HP.
    eapply Permutation_trans; [apply perm_skip; unfold kids; apply Permutation_flat_map; exact HP|].
    eapply Permutation_trans; [apply root_kids_perm|].
    eapply Permutation_trans; [apply Hids|]. unfold lt at 1. rewrite label_leaves.
    apply Permutation_app_head. apply Permutation_map. apply Permutation_sym. exact HP.
Qed.

(* the same in the vocabulary of the assembly proofs: the list of active groups (WeaveProofs.act_after) *)
Fixpoint sched_ok (act : list nat) (L : list (nat * nat * nat)) : Prop :=
  match L with
  | [] => True
  | (a, b, c) :: rest => In a act /\ In b act /\ a <> b /\ ~ In c act /\ sched_ok (act_after act a b c) rest
  end.
Definition acts (n : nat) (pre : list (nat * nat * nat)) : list nat :=
  fold_left (fun act x => act_after act (fst (fst x)) (snd (fst x)) (snd x)) pre (seq 0 n).

Lemma acts_snoc n pre a b c : acts n (pre ++ [(a, b, c)]) = act_after (acts n pre) a b c.
Proof. unfold acts. rewrite fold_left_app. reflexivity. Qed.

Lemma remove_nodup x l : NoDup l -> NoDup (remove Nat.eq_dec x l).
Proof.
  induction 1 as [|y l Hy Hl IH]; cbn [remove]; [constructor|]. destruct (Nat.eq_dec x y); [exact IH|].
  constructor; [|exact IH]. intros Q. apply in_remove in Q as [Q _]. contradiction.
Qed.
Lemma act_after_nodup act a b c : NoDup act -> ~ In c act -> NoDup (act_after act a b c).
Proof.
  intros H Hc. unfold act_after. constructor.
  - intros Q. apply in_remove in Q as [Q _]. apply in_remove in Q as [Q _]. contradiction.
  - apply remove_nodup. apply remove_nodup. exact H.
Qed.

Definition fresh_results (n : nat) (L : list (nat * nat * nat)) : Prop :=
  forall p1 a b c p2, L = p1 ++ (a, b, c) :: p2 -> n <= c /\ ~ In c (map tc p1) /\ ~ In c (a :: b :: kids p1).

Lemma acts_spec n : forall pre, fresh_results n pre ->
  NoDup (acts n pre) /\ forall x, In x (acts n pre) <-> (x < n \/ In x (map tc pre)) /\ ~ In x (kids pre).
Proof.
  induction pre as [|[[a b] c] pre IH] using rev_ind; intros F.
  - split; [apply seq_NoDup|]. intro x. unfold acts. cbn. rewrite in_seq. intuition lia.
  - destruct IH as (N & S). { intros p1 a' b' c' p2 ->. apply (F p1 a' b' c' (p2 ++ [(a, b, c)])). rewrite <- app_assoc. reflexivity. }
    destruct (F pre a b c [] eq_refl) as (Fn & Ft & Fk). rewrite acts_snoc. split.
    + apply act_after_nodup; [exact N|]. rewrite S. intros ([Q|Q] & _); [lia|contradiction].
    + intro x. rewrite in_act_after, S, map_app, kids_app, !in_app_iff. cbn in *.
      destruct (Nat.eq_dec x c) as [->|Hxc]; [|intuition congruence]. intuition (subst; tauto).
Qed.

Lemma schedule_fresh n root L : schedule n root L -> forall pre post, L = pre ++ post -> fresh_results n pre.
Proof.
  intros HL pre post E p1 a b c p2 ->. rewrite <- app_assoc in E. cbn [app] in E.
  destruct (schedule_respects n root L HL _ _ _ _ _ E) as (_ & _ & _ & Dc & Dpre).
  destruct HL as [HS _ _ Hh _]. rewrite E in HS, Hh. rewrite Forall_forall in Hh.
  assert (forall x y z, In (x, y, z) (p1 ++ [(a, b, c)]) -> x < c /\ y < c) as Hlow.
  { intros x y z Hin. destruct (Hh (x, y, z)) as (X & Y & _).
    { apply in_or_app. apply in_app_or in Hin as [Hin|[Hin|[]]]; [left; exact Hin|right; left; exact Hin]. }
    unfold tc in X, Y. cbn [fst snd] in X, Y. apply in_app_or in Hin as [Hin|[Hin|[]]]; [|inversion Hin; subst; lia].
    pose proof (proj1 (sorted_app_inv _ _ _ _ HS)) as Hpre. rewrite Forall_forall in Hpre. specialize (Hpre _ Hin). unfold tle, tc in Hpre. cbn [snd] in Hpre. lia. }
  split; [exact Dc|]. split.
  - intros Q. apply In_tcs in Q as (x & y & Q). exact (proj1 (Dpre _ _ _ Q) eq_refl).
  - destruct (Hlow a b c) as (A & B); [apply in_or_app; right; left; reflexivity|].
    intros [Q|[Q|Q]]; [lia|lia|]. apply In_kids in Q as (x & y & z & Q & Hk).
    destruct (Hlow x y z) as (X & Y); [apply in_or_app; left; exact Q|]. lia.
Qed.

Lemma schedule_ok n root L : schedule n root L -> sched_ok (seq 0 n) L.
Proof.
  intros HL. pose proof (schedule_respects n root L HL) as D.
  assert (forall post pre, L = pre ++ post -> sched_ok (acts n pre) post) as G.
  { induction post as [|[[a b] c] post IH]; intros pre E; [exact I|].
    destruct (D pre a b c post E) as (Da & Db & Dab & Dc & Dpre).
    destruct (acts_spec n pre (schedule_fresh n root L HL pre _ E)) as (_ & S).
    assert (forall k, (k < n \/ exists k1 k2, In (k1, k2, k) pre) -> (forall x y z, In (x, y, z) pre -> x <> k /\ y <> k) -> In k (acts n pre)) as Hin.
    { intros k Hk Hfresh. apply S. rewrite In_tcs, In_kids. split; [exact Hk|].
      intros (x & y & z & Q & Hxy). destruct (Hfresh _ _ _ Q). destruct Hxy; congruence. }
    cbn [sched_ok]. split; [|split; [|split; [exact Dab|split]]].
    - apply Hin; [exact Da|]. intros x y z Hx. destruct (Dpre _ _ _ Hx) as (_ & ? & _ & ? & _). split; assumption.
    - apply Hin; [exact Db|]. intros x y z Hx. destruct (Dpre _ _ _ Hx) as (_ & _ & ? & _ & ?). split; assumption.
    - rewrite S, In_tcs. intros ([Q|(x & y & Q)] & _); [lia|]. exact (proj1 (Dpre _ _ _ Q) eq_refl).
    - rewrite <- acts_snoc. apply IH. rewrite <- app_assoc. exact E. }
  exact (G L [] eq_refl).
Qed.

Theorem tree_schedule_ok : forall t n,
  NoDup (leaves t) -> (forall i, In i (leaves t) -> i < n) ->
  sched_ok (seq 0 n) (sort_tasks (tasks_of (fst (label t n)))).
Proof. intros t n Hnd Hlt. exact (schedule_ok n _ _ (tree_schedule t n Hnd Hlt)). Qed.
