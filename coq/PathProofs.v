(* add_gap_info_to_path_n turns a well-formed raw path into ops that fit the two widths. *)
From KV Require Import ListFacts Base Weave WeaveProofs WeaveCheck.
Local Open Scope Z_scope.

Definition kinds (l : list Z) : list opk := map op_kind l.

Lemma cnt_ones k n l :
  cnt k (kinds (ones n ++ l)) = ((if k OGA then Z.to_nat n else 0%nat) + cnt k (kinds l))%nat.
Proof.
  unfold kinds at 1. rewrite map_app, cnt_app. f_equal. unfold ones.
  induction (Z.to_nat n) as [|m IH]; [destruct (k OGA); reflexivity|].
  cbn [repeat map]. change (op_kind 1) with OGA. rewrite cnt_cons, IH.
  destruct (k OGA); reflexivity.
Qed.

Definition nmatched (ps : list Z) : nat := length (filter (fun p => negb (p =? -1)) ps).

Definition entry_ops (b p : Z) : list Z :=
  if p =? -1 then [2] else if negb (p - 1 =? b) && negb (b =? -1) then ones (p - b - 1) ++ [0] else [0].
Definition entry_skip (b p : Z) : Z :=
  if (p =? -1) || negb (negb (p - 1 =? b) && negb (b =? -1)) then 0 else p - b - 1.

Lemma rest_ops_cons b p ps : rest_ops b (p :: ps) = entry_ops b p ++ rest_ops p ps.
Proof. reflexivity. Qed.

Lemma entry_counts k b p l :
  cnt k (kinds (entry_ops b p ++ l)) =
  ((if k OGA then Z.to_nat (entry_skip b p) else 0) + Nat.b2n (k (if (p =? -1)%Z then OGB else OM)) + cnt k (kinds l))%nat.
Proof.
  unfold entry_ops, entry_skip. destruct (p =? -1); [destruct (k OGA); apply cnt_cons|].
  destruct (negb (p - 1 =? b) && negb (b =? -1)); cbn [orb negb].
  - rewrite <- app_assoc, cnt_ones. change (kinds ([0] ++ l)) with (OM :: kinds l). rewrite cnt_cons. lia.
  - destruct (k OGA); apply cnt_cons.
Qed.

(* the first entry is treated like an entry that follows a match with column 0 *)
Lemma raw_ops_rest lb p ps : raw_ops lb (p :: ps) = rest_ops 0 (p :: ps) ++ tail_ops lb (last (p :: ps) 0).
Proof.
  unfold raw_ops. rewrite !last_cons. cbn [rest_ops]. rewrite <- app_assoc. f_equal.
  unfold first_ops. destruct (p =? -1); [reflexivity|]. rewrite Z.sub_0_r, andb_true_r.
  replace (p - 1 =? 0) with (p =? 1) by (destruct (Z.eqb_spec p 1), (Z.eqb_spec (p - 1) 0); lia). reflexivity.
Qed.

Lemma kpath_wfb_rest lb path : kpath_wfb lb path = true -> wf_rest lb 0 0 path = true /\ (0 < nmatched path)%nat.
Proof.
  destruct path as [|p ps]; [discriminate|]. unfold kpath_wfb. intro H. apply andb_true_iff in H as [Hex H]. split.
  - cbn [wf_rest]. destruct (p =? -1); [exact H|]. replace (0 <? p) with (1 <=? p); [exact H|].
    destruct (Z.leb_spec 1 p), (Z.ltb_spec 0 p); lia.
  - unfold nmatched. apply existsb_exists in Hex as (x & Hin & Hx).
    assert (In x (filter (fun p => negb (p =? -1)) (p :: ps))) as Hf by (apply filter_In; auto).
    destruct (filter _ (p :: ps)); [contradiction|simpl; lia].
Qed.

(* side 1, for every path: one M or GB per entry, one M per matched entry, nothing else read by make_seq *)
Lemma rest_counts_a : forall ps lb b, let ops := kinds (rest_ops b ps ++ tail_ops lb (last ps b)) in
  (cnt is_M ops + cnt is_GB ops)%nat = length ps /\ cnt is_NONE ops = 0%nat /\ cnt is_M ops = nmatched ps.
Proof.
  induction ps as [|p ps IH]; intros lb b; cbv zeta.
  - cbn [rest_ops app last]. unfold tail_ops. destruct (_ && _); [|repeat split].
    rewrite <- (app_nil_r (ones _)), !cnt_ones. repeat split.
  - rewrite last_cons, rest_ops_cons, <- app_assoc.
    rewrite !entry_counts. destruct (IH lb p) as (I1 & I2 & I3). unfold nmatched in *. cbn [filter length].
    destruct (p =? -1); simpl in *; repeat split; lia.
Qed.

(* side 2, for a well-formed path: the M and GA ops cover the columns from cur to lb *)
Lemma rest_counts_b : forall ps lb cur b,
  0 <= cur -> (b <> -1 -> cur = b) -> wf_rest lb cur b ps = true ->
  let ops := kinds (rest_ops b ps ++ tail_ops lb (last ps b)) in
  Z.of_nat (cnt is_M ops + cnt is_GA ops) = lb - cur.
Proof.
  induction ps as [|p ps IH]; intros lb cur b Hcur Hb Hwf; cbv zeta.
  - cbn [rest_ops app last wf_rest] in *. unfold tail_ops.
    destruct (Z.eqb_spec b (-1)) as [Eb|Eb]; [apply Z.eqb_eq in Hwf; rewrite andb_false_r; cbn; lia|].
    apply Z.leb_le in Hwf. rewrite (Hb Eb), andb_true_r.
    destruct (Z.ltb_spec b lb); [|cbn; lia]. rewrite <- (app_nil_r (ones _)), !cnt_ones. cbn. lia.
  - rewrite last_cons, rest_ops_cons, <- app_assoc. cbn [wf_rest] in Hwf.
    rewrite !entry_counts. unfold entry_skip.
    destruct (Z.eqb_spec p (-1)) as [->|Ep]; [exact (IH lb cur (-1) Hcur ltac:(congruence) Hwf)|].
    destruct (Z.eqb_spec b (-1)) as [Eb|Eb]; apply andb_true_iff in Hwf as [Hp Hwf].
    + apply Z.eqb_eq in Hp. rewrite andb_false_r. cbn [orb negb is_M is_GA Nat.b2n].
      specialize (IH lb p p ltac:(lia) ltac:(auto) Hwf). cbv zeta in IH. lia.
    + apply Z.ltb_lt in Hp. rewrite (Hb Eb) in *. rewrite andb_true_r. cbn [orb is_M is_GA Nat.b2n].
      specialize (IH lb p p ltac:(lia) ltac:(auto) Hwf). cbv zeta in IH.
      destruct (Z.eqb_spec (p - 1) b); cbn [negb]; lia.
Qed.

(* the terminal flag does not change what make_seq reads *)
Lemma op_kind_flag o : o <> 0 -> op_kind (Z.lor o 32) = op_kind o.
Proof.
  intro H. unfold op_kind.
  destruct (Z.eqb_spec (Z.lor o 32) 0) as [E|_]; [apply Z.lor_eq_0_iff in E; destruct E; discriminate|].
  destruct (Z.eqb_spec o 0); [contradiction|].
  rewrite !Z.land_lor_distr_l. change (Z.land 32 1) with 0. change (Z.land 32 2) with 0. rewrite !Z.lor_0_r. reflexivity.
Qed.

Lemma flag_leading_kinds l : kinds (flag_leading l) = kinds l.
Proof.
  induction l as [|o l IH]; [reflexivity|]. cbn [flag_leading].
  destruct (Z.eqb_spec o 0); [reflexivity|]. unfold kinds in *. cbn [map]. rewrite IH, op_kind_flag; auto.
Qed.

Lemma flag_terminal_kinds l : kinds (flag_terminal l) = kinds l.
Proof.
  unfold flag_terminal, kinds. rewrite map_rev. fold (kinds (flag_leading (rev (flag_leading l)))).
  rewrite flag_leading_kinds. unfold kinds. rewrite map_rev, rev_involutive. apply flag_leading_kinds.
Qed.

Lemma existsb_zero_of_M l : (0 < cnt is_M (kinds l))%nat -> existsb (fun o => o =? 0) l = true.
Proof.
  unfold cnt, kinds. induction l as [|o l IH]; simpl; [lia|].
  unfold op_kind at 1. destruct (o =? 0) eqn:E; [reflexivity|].
  simpl. destruct (Z.land o 1 =? 1); simpl; auto. destruct (Z.land o 2 =? 2); simpl; auto.
Qed.

(* C01, path layer: a well-formed raw path expands to ops that cover every row of side 1 and
   every column of side 2 exactly once. *)
Theorem expand_path_counts lb path :
  kpath_wfb lb path = true ->
  exists ops, add_gap_info lb path = Some ops /\
    ops_fit (map op_kind ops) (length path) (Z.to_nat lb).
Proof.
  intro H. destruct (kpath_wfb_rest lb path H) as (Hwf & Hm).
  destruct path as [|p ps]; [discriminate|].
  pose proof (rest_counts_a (p :: ps) lb 0) as (A1 & A2 & A3).
  pose proof (rest_counts_b (p :: ps) lb 0 0 ltac:(lia) ltac:(auto) Hwf) as B.
  cbv zeta in *. rewrite <- raw_ops_rest in *.
  unfold add_gap_info. rewrite existsb_zero_of_M by (rewrite A3; exact Hm).
  eexists. split; [reflexivity|].
  fold (kinds (flag_terminal (raw_ops lb (p :: ps)))). rewrite flag_terminal_kinds.
  repeat split; auto. lia.
Qed.
