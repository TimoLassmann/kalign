(* C09: the switch of aln_param_init against the documented admissibility (select_is_fits), the built parameter table
   against the documented values (defaults_are_documented), and init read through both (init_eq). *)
From KV Require Export ParamsDoc.
From KV Require Import Base Params.
From KV Require Import Generated.Doc.
Local Open Scope Z_scope.

Lemma defaults_are_documented s : pset_defaults s = Some (doc_params s).
Proof. destruct s; reflexivity. Qed.

Definition type_constants := [KALIGN_TYPE_DNA; KALIGN_TYPE_DNA_INTERNAL; KALIGN_TYPE_RNA;
                              KALIGN_TYPE_PROTEIN; KALIGN_TYPE_PROTEIN_DIVERGENT; KALIGN_TYPE_UNDEFINED].
Definition kinds := [ALN_BIOTYPE_PROTEIN; ALN_BIOTYPE_DNA].

Lemma in_kinds_types (P : Z -> Z -> Prop) :
  Forall (fun bt => Forall (P bt) type_constants) kinds ->
  forall bt ty, In bt kinds -> In ty type_constants -> P bt ty.
Proof. intros H bt ty Hb Ht. rewrite Forall_forall in H. specialize (H bt Hb). rewrite Forall_forall in H. exact (H ty Ht). Qed.

Lemma select_is_fits bt ty : In bt kinds -> In ty type_constants -> select bt ty = fits bt ty.
Proof. apply (in_kinds_types (fun bt ty => select bt ty = fits bt ty)). repeat constructor. Qed.

(* aln_param_init: the selected set's documented values, each replaced by a given penalty.  [override] spells the record
   that Params.init builds; init_eq is the one place where the two are tied. *)
Definition override (d : params) (g e t : N) : params :=
  mkParams (if f32_ge0 g then g else p_gpo d) (if f32_ge0 e then e else p_gpe d) (if f32_ge0 t then t else p_tgpe d) (p_subm d).

Lemma init_eq bt ty g e t : init bt ty g e t = option_map (fun s => override (doc_params s) g e t) (select bt ty).
Proof. unfold init. destruct (select bt ty) as [s|]; [|reflexivity]. rewrite defaults_are_documented. reflexivity. Qed.

Lemma override_none d g e t : f32_ge0 g = false -> f32_ge0 e = false -> f32_ge0 t = false -> override d g e t = d.
Proof. unfold override. intros -> -> ->. destruct d; reflexivity. Qed.

Lemma override_self d : f32_ge0 (p_gpo d) = true -> f32_ge0 (p_gpe d) = true -> f32_ge0 (p_tgpe d) = true ->
  override d (p_gpo d) (p_gpe d) (p_tgpe d) = d.
Proof. unfold override. intros -> -> ->. destruct d; reflexivity. Qed.

(* every default penalty is a non-negative number, so it can be passed explicitly *)
Lemma defaults_nonneg s :
  f32_ge0 (p_gpo (doc_params s)) = true /\ f32_ge0 (p_gpe (doc_params s)) = true /\
  f32_ge0 (p_tgpe (doc_params s)) = true.
Proof. destruct s; vm_compute; auto. Qed.

Lemma init_not_given_irrelevant bt ty g e t g' e' t' :
  (f32_ge0 g = false -> f32_ge0 g' = false) -> (f32_ge0 g = true -> g' = g) ->
  (f32_ge0 e = false -> f32_ge0 e' = false) -> (f32_ge0 e = true -> e' = e) ->
  (f32_ge0 t = false -> f32_ge0 t' = false) -> (f32_ge0 t = true -> t' = t) ->
  init bt ty g e t = init bt ty g' e' t'.
Proof.
  intros G0 G1 E0 E1 T0 T1. rewrite !init_eq. destruct (select bt ty); [|reflexivity]. cbn [option_map]. unfold override.
  do 2 f_equal; [destruct (f32_ge0 g) eqn:H; [rewrite (G1 eq_refl), H|rewrite (G0 eq_refl)]
                |destruct (f32_ge0 e) eqn:H; [rewrite (E1 eq_refl), H|rewrite (E0 eq_refl)]
                |destruct (f32_ge0 t) eqn:H; [rewrite (T1 eq_refl), H|rewrite (T0 eq_refl)]]; reflexivity.
Qed.

Lemma type_words w : In w doc_type_words ->
  exists t, doc_word_type w = Some t /\ set_aln_type (Some (bytes_of_string w)) = Some t.
Proof. intro H. repeat destruct H as [<-|H]; [..|destruct H]; eexists; split; reflexivity. Qed.

Lemma cli_no_type : set_aln_type None = Some KALIGN_TYPE_UNDEFINED.
Proof. reflexivity. Qed.
