(* Facts about the standard list functions that Coq 8.16's List does not have, used by several proof files. *)
From Coq Require Import List Arith ZArith Lia.
Import ListNotations.

Lemma last_cons {X} : forall (l : list X) x d, last (x :: l) d = last l x.
Proof.
  induction l as [|y l IH]; intros x d; [reflexivity|].
  change (last (x :: y :: l) d) with (last (y :: l) d). rewrite (IH y d), (IH y x). reflexivity.
Qed.

Lemma last_nth {X} : forall (l : list X) d, last l d = nth (length l - 1) l d.
Proof.
  induction l as [|x l IH]; intro d; [reflexivity|]. destruct l as [|y l]; [reflexivity|].
  change (last (x :: y :: l) d) with (last (y :: l) d). rewrite IH. cbn [length].
  rewrite !Nat.sub_succ, !Nat.sub_0_r. reflexivity.
Qed.

Lemma nth_error_firstn_lt {X} : forall k i (l : list X), i < k -> nth_error (firstn k l) i = nth_error l i.
Proof.
  induction k as [|k IH]; intros i l H; [lia|]. destruct l as [|x l]; [destruct i; reflexivity|].
  destruct i; [reflexivity|]. cbn [firstn nth_error]. apply IH. lia.
Qed.

Lemma nth_error_skipn {X} : forall s t (l : list X), nth_error (skipn s l) t = nth_error l (s + t).
Proof.
  induction s as [|s IH]; intros t l; [reflexivity|]. destruct l as [|x l]; [destruct t; reflexivity|].
  cbn [skipn Nat.add nth_error]. apply IH.
Qed.

Lemma nth_firstn_lt {X} k i (l : list X) d : i < k -> nth i (firstn k l) d = nth i l d.
Proof. intros H. rewrite <- !nth_default_eq. unfold nth_default. rewrite nth_error_firstn_lt by exact H. reflexivity. Qed.

Lemma nth_skipn {X} s t (l : list X) d : nth t (skipn s l) d = nth (s + t) l d.
Proof. rewrite <- !nth_default_eq. unfold nth_default. rewrite nth_error_skipn. reflexivity. Qed.

Lemma skipn_nth_cons {X} (d : X) : forall n l, n < length l -> skipn n l = nth n l d :: skipn (S n) l.
Proof. induction n as [|n IH]; intros [|x l] H; cbn [length] in H; try lia; [reflexivity|]. apply IH. lia. Qed.

Lemma firstn_S_nth {X} (d : X) : forall j l, j < length l -> firstn (S j) l = firstn j l ++ [nth j l d].
Proof.
  induction j as [|j IH]; intros [|x l] H; cbn [length] in H; try lia; [reflexivity|].
  cbn [firstn nth app]. f_equal. apply IH. lia.
Qed.

Lemma firstn_repeat {X} (x : X) : forall k n, firstn k (repeat x n) = repeat x (Nat.min k n).
Proof. induction k as [|k IH]; intros [|n]; [reflexivity..|]. cbn [repeat firstn Nat.min]. f_equal. apply IH. Qed.

Lemma skipn_repeat {X} (x : X) : forall k n, skipn k (repeat x n) = repeat x (n - k).
Proof. induction k as [|k IH]; intros [|n]; [reflexivity..|]. apply IH. Qed.

Lemma nth_map_in {X Y} (f : X -> Y) l i d d' : i < length l -> nth i (map f l) d' = f (nth i l d).
Proof. intros H. rewrite (nth_indep _ d' (f d)) by (rewrite map_length; exact H). apply map_nth. Qed.

Lemma seq_add : forall n s, seq s n = map (Nat.add s) (seq 0 n).
Proof.
  induction n as [|n IH]; intro s; [reflexivity|]. cbn [seq map]. rewrite Nat.add_0_r. f_equal.
  rewrite (IH (S s)), <- (seq_shift n 0), map_map. apply map_ext. intro i. lia.
Qed.

Lemma nth_map_seq {X} (f : nat -> X) s n i d : i < n -> nth i (map f (seq s n)) d = f (s + i).
Proof. intros H. rewrite (nth_map_in f _ i 0) by (rewrite seq_length; exact H). rewrite seq_nth by exact H. reflexivity. Qed.

Lemma fold_left_rel {S1 S2 X} (R : S1 -> S2 -> Prop) (f : S1 -> X -> S1) (g : S2 -> X -> S2) :
  (forall s1 s2 x, R s1 s2 -> R (f s1 x) (g s2 x)) ->
  forall l s1 s2, R s1 s2 -> R (fold_left f l s1) (fold_left g l s2).
Proof. intros H. induction l as [|x l IH]; intros s1 s2 H0; [exact H0|]. apply IH, H, H0. Qed.

Lemma fold_left_inv {S X} (P : S -> Prop) (f : S -> X -> S) :
  (forall s x, P s -> P (f s x)) -> forall l s, P s -> P (fold_left f l s).
Proof. intros H l s. exact (fold_left_rel (fun s _ => P s) f f (fun s _ x => H s x) l s s). Qed.

Lemma NoDup_app_iff {X} (a b : list X) :
  NoDup (a ++ b) <-> NoDup a /\ NoDup b /\ forall x, In x a -> In x b -> False.
Proof.
  induction a as [|y a IH]; cbn [app].
  - split; [intros N; repeat split; [constructor|exact N|intros x []]|intros (_ & N & _); exact N].
  - rewrite !NoDup_cons_iff, IH, in_app_iff. split.
    + intros (Hy & Na & Nb & D). repeat split; auto. intros x [->|Ha] Hb; eauto.
    + intros ((Hy & Na) & Nb & D). split; [intros [Q|Q]; [exact (Hy Q)|exact (D y (or_introl eq_refl) Q)]|].
      repeat split; auto. intros x Ha. apply D. right. exact Ha.
Qed.
