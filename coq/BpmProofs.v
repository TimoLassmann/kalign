From KV Require Import Base Bpm.
Local Open Scope Z_scope.

Lemma if_ltb_min x k : (if x <? k then x else k) = Z.min k x.
Proof. destruct (Z.ltb_spec x k); lia. Qed.

Lemma sed_fold_le : forall t p col best,
  snd (fold_left (fun st c => let '(col, best) := st in
                              let col' := next_col c p col 0 0 in (col', Z.min best (last col' 0))) t (col, best)) <= best.
Proof.
  induction t as [|c t IH]; intros p col best; simpl; [lia|].
  etransitivity; [apply IH|]. lia.
Qed.
