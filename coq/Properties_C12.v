(* C12 - Duplicate input sequences receive identical rows.
   PARTIAL.  Proved (pure lists, every guide tree, every family of fitting paths): two rows of one group that
   are equal stay equal through every later merge (the merge applies one insertion vector to the whole
   group).  Hence, once the copies of a sequence form one group with equal rows - which is the case when
   they are merged with each other first (a clade of the guide tree) by all-match paths (C08) - they come
   out identical.  Proved in EXACT arithmetic (kernel text over integers with minus infinity, binary32
   parameters at their real values): inside ANY run of the model, the merges that stay within a clade of
   copies are all diagonal and all-match, whatever the other merges do (C12_clade_of_copies_exact).
   NOT theorems: that UPGMA makes the copies a clade under the containment premise, and that the binary32
   run decides like the exact one (rounding): the clade premise is MONITORED on every guide tree of every
   run, the tree and every merge are compared bit-exactly between the executable binary32 model and the
   implementation (DESIGN C12). *)
From Coq Require Import ZArith List Lia.
From KV Require Import WeaveProofs AssemblyProofs Pipeline ExactDiagInst ExactDiagRun CladeTasks BpmBits BpmBitsProofs SellersProofs.
Import ListNotations.
Local Open Scope nat_scope.

Theorem C12_equal_rows_of_a_group_stay_equal : forall seqs tasks st act,
  Inv seqs st act -> valid_run seqs st act tasks ->
  forall i j x, In x act -> In i (members st x) -> In j (members st x) ->
  row_of seqs st i = row_of seqs st j ->
  row_of seqs (run_from st tasks) i = row_of seqs (run_from st tasks) j.
Proof.
  intros seqs tasks st act HI HV i j x Hx Hi Hj E.
  destruct (run_inserts_uniformly seqs tasks st act HI HV x Hx) as (gs & Hgs).
  rewrite (proj2 (Hgs i Hi)), (proj2 (Hgs j Hj)), E. reflexivity.
Qed.
Print Assumptions C12_equal_rows_of_a_group_stay_equal.

(* Non-vacuity: a run observed on the implementation (sequences 0 and 1 are copies, merged first by an
   all-match path, then merged with a third sequence that forces gaps): the premises hold at the state after
   the first merge and the two rows are equal at the end *)
Definition dup_seqs : list (list Z) := [[65;67;84;65;67;71;71]; [65;67;71;84;65;67]; [65;67;71;84;65;67]]%Z.
Definition dup_tasks : list task := [(1, 2, 3, [0;0;0;0;0;0]%Z); (0, 3, 4, [0;0;2;0;0;0;0]%Z)].
Example C12_nonvacuous :
  valid_runb dup_seqs (st0 dup_seqs) (seq 0 3) dup_tasks = true /\
  let st1 := run_from (st0 dup_seqs) (firstn 1 dup_tasks) in
  In 1 (members st1 3) /\ In 2 (members st1 3) /\ row_of dup_seqs st1 1 = row_of dup_seqs st1 2 /\
  row_of dup_seqs (run_from (st0 dup_seqs) dup_tasks) 1 = row_of dup_seqs (run_from (st0 dup_seqs) dup_tasks) 2 /\
  row_of dup_seqs (run_from (st0 dup_seqs) dup_tasks) 1 = [65;67;45;71;84;65;67]%Z.
Proof. vm_compute. repeat split; auto. Qed.

(* The containment premise, in terms of the number the code computes: the bit-parallel distance kernel (bpm_block, C11) returns 0
   exactly when the pattern - its first 1024 symbols - occurs in the text.  So copies are at distance 0 from each other, and a
   sequence is at distance >= 1 from the copies unless one contains the other: the premise of C12 is the statement that no other
   pair of the input is as close as the copies are. *)
Theorem C12_distance_zero_iff_contained : forall (t p : list Z), (1 <= length p)%nat ->
  (bpm_block_bits t p = 0%Z <-> exists pre post, t = (pre ++ firstn 1024 p ++ post)%list).
Proof. intros t p H. rewrite (bpm_block_bits_is_sed t p H). apply sed_zero_iff_contained. Qed.
Print Assumptions C12_distance_zero_iff_contained.

(* The clade step in exact arithmetic.  [cp] marks the indices of the groups of the clade: at the start each marked
   group present is a group of copies of x (a single copy, or a profile of k copies); every task either stays inside
   the marked indices or writes to an unmarked one.  Then - for every scheme that passes the finite check of C08,
   every other content of the run, every task list - each marked merge has the diagonal raw path and all-match
   operations, so the copies enter the rest of the run as one group with equal rows. *)
Theorem C12_clade_of_copies_exact :
  forall (unit : Z), (0 <= unit)%Z -> forall (S : list (list Z)) (gpo gpe tgpe gam : Z) (dim : nat) (mx : Z),
  scheme_ok unit S gpo gpe tgpe gam dim mx = true -> (dim <= 23)%nat ->
  forall x : list Z, Forall (fun c => inr dim c = true) x -> (1 <= length x)%nat ->
  forall (cp : nat -> bool) tasks groups out,
  (forall i g, cp i = true -> nth i groups None = Some g -> exists k, (1 <= k)%Z /\ grpK unit S gpo gpe tgpe x k g) ->
  clade_tasks cp tasks ->
  run_tasks (AX unit) (PX unit S gpo gpe tgpe) groups tasks = Some out ->
  Forall (fun e => cp (snd (fst (fst (fst e)))) = true -> diag_entry unit x e) out.
Proof. intros unit Hu S gpo gpe tgpe gam dim mx Hok Hd x Hx HL cp. exact (run_tasks_clade unit Hu S gpo gpe tgpe gam dim mx Hok Hd x Hx HL cp). Qed.
Print Assumptions C12_clade_of_copies_exact.

(* ... and this is the shape every guide tree gives: for ANY input set, ANY guide tree (labelled by label_internal,
   whose labels are distinct - C12_labels_are_distinct) and ANY subtree s whose leaves are copies of x, the task list of
   the tree (sorted by label as sort_tasks does) keeps the merges of s inside s, so they are diagonal and all-match: the
   copies leave the clade as one group with equal rows, and C12_equal_rows_of_a_group_stay_equal takes over. *)
Theorem C12_clade_of_copies_in_any_guide_tree_exact :
  forall (unit : Z) (S : list (list Z)) (gpo gpe tgpe gam : Z) (dim : nat) (mx : Z),
  (0 <= unit)%Z -> scheme_ok unit S gpo gpe tgpe gam dim mx = true -> (dim <= 23)%nat ->
  forall x : list Z, Forall (fun c => inr dim c = true) x -> (1 <= length x)%nat ->
  forall (codes : list (list Z)) (t s : ltree) out,
  NoDup (ids t) -> subtree s t ->
  (forall i, In i (ids s) -> (i < length codes)%nat -> nth i codes [] = x) ->
  progressive (AX unit) (PX unit S gpo gpe tgpe) codes (sort_tasks (tasks_of t)) = Some out ->
  Forall (fun e => marks s (snd (fst (fst (fst e)))) = true -> diag_entry unit x e) out.
Proof.
  intros unit S gpo gpe tgpe gam dim mx Hu Hok Hd x Hx HL codes t s out Hnd Hs Hleaves Hr. unfold progressive in Hr.
  apply (run_tasks_clade unit Hu S gpo gpe tgpe gam dim mx Hok Hd x Hx HL (marks s) _ _ _) in Hr; [exact Hr| |].
  - intros i g Ci Hi. apply marks_in in Ci. apply (leaf_groups_nth unit _ _ _ _ []) in Hi as (Lt & ->). rewrite (Hleaves i Ci Lt).
    exists 1%Z. split; [lia|apply leaf_grpK].
  - apply sort_tasks_Forall. apply subtree_clade_tasks; assumption.
Qed.
Print Assumptions C12_clade_of_copies_in_any_guide_tree_exact.

Theorem C12_labels_are_distinct : forall (t : utree) (n : nat),
  NoDup (leaves t) -> (forall i, In i (leaves t) -> (i < n)%nat) -> NoDup (ids (fst (label t n))).
Proof. exact label_nodup. Qed.
Print Assumptions C12_labels_are_distinct.

(* Non-vacuity, evaluated in exact arithmetic under a nucleotide scheme written out here (match 5, mismatch -4, gap
   open 8, extension 6, terminal 0, scaled by 2000; unit 1): the scheme passes the check; sequences 1, 2 and 4 are copies
   and form a clade (tasks (1,2,5) and (5,4,6)); sequences 0 and 3 differ and are merged outside it; the marked merges
   are diagonal, the run returns, and the other merges are not all-match (terminal gaps are free under this scheme) *)
Definition c12_m : list (list Z) := map (fun i => map (fun j => if (i =? j)%nat then 10000%Z else (-8000)%Z) (seq 0 5)) (seq 0 5).
Example C12_clade_instance :
  scheme_ok 1 c12_m 16000 12000 0 5000 5 10000 = true /\
  let x := [0; 1; 4; 2; 3; 3; 4; 1]%Z in
  let y := [0; 1; 2; 3; 3; 1; 0]%Z in let z := [2; 2; 0; 1; 3; 3; 1; 1; 0]%Z in
  option_map (map (fun e => (snd (fst (fst (fst e))), snd (fst e))))
    (progressive (AX 1) (PX 1 c12_m 16000 12000 0) [y; x; x; z; x] [(1, 2, 5); (0, 3, 7); (5, 4, 6); (6, 7, 8)]%nat)
  = Some [(5%nat, repeat 0%Z 8); (7%nat, [33; 33; 0; 0; 0; 0; 0; 0; 0]%Z); (6%nat, repeat 0%Z 8); (8%nat, (repeat 33 8 ++ [0] ++ repeat 34 7)%Z)].
Proof. vm_compute. split; reflexivity. Qed.
