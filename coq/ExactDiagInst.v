(* C08, sequence-sequence kernel in exact arithmetic: ss_kernel of Pipeline.v (the kernel text of Kernels.v with the
   accessors of aln_seqseq.c) over integers-with-minus-infinity returns the diagonal when both operands are the same
   residue string, for every length, under a finite checkable condition on the scoring scheme.  Units: everything is
   scaled by 2000 so that kalign's tie-break |(endb-startb)/2 + startb - i| / 1000 is the integer |endb + startb - 2 i|.
   The square sub-problem is settled once for every cost record whose entries are those of the scheme times q
   (Section Scaled: scaled, scaled_square); the sequence-sequence kernel is the instance q = 1, the profile kernels of
   ExactDiagProf.v are the others. *)
From Coq Require Import ZArith List Bool Lia.
From KV Require Import ListFacts Base Kernels KernelProofs Pipeline PipelineProofs DupProofs ExactDiag Params.
Import ListNotations.
Local Open Scope Z_scope.

Lemma seq1_diag L : map Z.of_nat (seq 1 L) = diag L.
Proof. unfold diag. rewrite <- seq_shift, map_map. apply map_ext. intros i. lia. Qed.

Lemma mid_centre o e : Z.abs (e + o - 2 * ((e - o) / 2 + o)) <= 1.
Proof. Z.div_mod_to_equations. lia. Qed.

Lemma skipn_add {X} : forall p a (l : list X), skipn (p + a) l = skipn p (skipn a l).
Proof.
  intros p a; revert p. induction a as [|a IH]; intros p l; [rewrite Nat.add_0_r; reflexivity|].
  rewrite Nat.add_succ_r. destruct l as [|x l]; [cbn [skipn]; rewrite skipn_nil; reflexivity|]. cbn [skipn]. apply IH.
Qed.
Lemma firstn_add {X} p q (l : list X) : firstn (p + q) l = firstn p l ++ firstn q (skipn p l).
Proof. rewrite firstn_skipn_comm, <- (firstn_skipn p (firstn (p + q) l)) at 1. rewrite firstn_firstn, Nat.min_l by lia. reflexivity. Qed.
Lemma slice_app {X} (l : list X) a m b : 0 <= a <= m -> m <= b -> slice l a b = slice l a m ++ slice l m b.
Proof.
  intros H1 H2. unfold slice.
  replace (Z.to_nat (b - a)) with (Z.to_nat (m - a) + Z.to_nat (b - m))%nat by lia.
  replace (Z.to_nat m) with (Z.to_nat (m - a) + Z.to_nat a)%nat by lia.
  rewrite skipn_add. apply firstn_add.
Qed.
Lemma slice_incl {X} (l : list X) a b : incl (slice l a b) l.
Proof.
  intros y H. rewrite <- (firstn_skipn (Z.to_nat a) l). apply in_or_app. right.
  rewrite <- (firstn_skipn (Z.to_nat (b - a)) (skipn (Z.to_nat a) l)). apply in_or_app. left. exact H.
Qed.
Lemma nth_slice {X} (l : list X) a b t d : (t < Z.to_nat (b - a))%nat -> nth t (slice l a b) d = nth (Z.to_nat a + t) l d.
Proof. intros H. unfold slice. rewrite nth_firstn_lt by exact H. apply nth_skipn. Qed.

Lemma prefix_pairs {X Y W} (f : X -> W) (g : Y -> W) l1 l2 rest t a b :
  map g l2 = map f l1 ++ rest -> nth_error l1 t = Some a -> nth_error l2 t = Some b -> f a = g b.
Proof.
  intros E Ha Hb. apply (map_nth_error f) in Ha. apply (map_nth_error g) in Hb.
  rewrite E, nth_error_app1 in Hb by (apply nth_error_Some; congruence). congruence.
Qed.
Lemma map_comp_eq {X Y W V} (f : X -> W) (g : Y -> W) (h : W -> V) l1 l2 :
  map f l1 = map g l2 -> map (fun a => h (f a)) l1 = map (fun b => h (g b)) l2.
Proof. intros H. rewrite <- (map_map f h), <- (map_map g h), H. reflexivity. Qed.

(* the unit: 1/2000 is [unit] integer steps (a power of two when the parameters are binary32 values, see the end) *)
Section Unit.
Variable unit : Z.
Hypothesis unit_pos : 0 <= unit.
Definition tbk (a b i : Z) : Z := unit * Z.abs (b + a - 2 * i).
Lemma tbk_nonneg a b i : 0 <= tbk a b i. Proof. unfold tbk. apply Z.mul_nonneg_nonneg; lia. Qed.
Definition AX := alg_X tbk.

Section SS.
Variable S : list (list Z).             (* the substitution matrix, scaled; kalign's is float subm[23][23] *)
Variables gpo gpe tgpe gam : Z.
Variable dim : nat.                     (* the residue codes in use are 0 .. dim-1 *)
Variable mx : Z.                        (* a bound on every entry of S (rows and columns outside dim included) *)
Definition sc (a b : nat) : Z := nth b (nth a S []) 0.
Definition PX : nparams AX := mkNP AX (Some gpo) (Some gpe) (Some tgpe) (map (map (@Some Z)) S).

(* the finite condition on the scheme: 2 s(i,j) <= s(i,i) + s(j,j) and every self-score outweighs every gap cost by
   2*gam over the codes in use; gam exceeds the tie-break at the middle column (at most one unit) *)
Definition row_ok (i : nat) : bool :=
  forallb (fun j => 2 * sc i j <=? sc i i + sc j j) (seq 0 dim) && (0 <=? sc i i + 2 * gam) &&
  (2 * gam <=? sc i i + 2 * gpo) && (2 * gam <=? sc i i + 2 * gpe) && (2 * gam <=? sc i i + 2 * tgpe).
Definition scheme_ok : bool :=
  forallb row_ok (seq 0 dim) && (0 <=? gpo) && (0 <=? gpe) && (0 <=? tgpe) && (unit <? gam) && (0 <? gam) &&
  forallb (forallb (fun v => v <=? mx)) S && (0 <=? mx).

Hypothesis Hok : scheme_ok = true.

Definition inr (c : Z) : bool := (Z.to_nat c <? dim)%nat.
(* a code outside the alphabet gets a potential large enough that match_ub and pot_gap hold for it with no assumption
   on its row of S *)
Definition pot (c : Z) : Z := if inr c then sc (Z.to_nat c) (Z.to_nat c) else 2 * gam + 2 * mx.

Lemma sub_score_X a b : sub_score AX PX a b = Some (sc (Z.to_nat a) (Z.to_nat b)).
Proof.
  unfold sub_score, sc. cbn [n_subm PX].
  change (@nil (T AX)) with (map (@Some Z) []). rewrite (map_nth (map (@Some Z))). apply (map_nth (@Some Z)).
Qed.

Lemma ok_facts : 0 <= gpo /\ 0 <= gpe /\ 0 <= tgpe /\ (unit < gam /\ 0 < gam) /\ 0 <= mx /\ (forall i j, sc i j <= mx) /\
  forall i, (i < dim)%nat -> (forall j, (j < dim)%nat -> 2 * sc i j <= sc i i + sc j j) /\ 0 <= sc i i + 2 * gam /\
     2 * gam <= sc i i + 2 * gpo /\ 2 * gam <= sc i i + 2 * gpe /\ 2 * gam <= sc i i + 2 * tgpe.
Proof.
  unfold scheme_ok in Hok. rewrite !andb_true_iff in Hok. destruct Hok as (((((((H1 & H2) & H3) & H4) & H5) & H6) & H7) & H8).
  split; [lia|]. split; [lia|]. split; [lia|]. split; [lia|]. split; [lia|]. split.
  - intros i j. unfold sc. destruct (Nat.ltb_spec i (length S)) as [Li|Li].
    + rewrite forallb_forall in H7. specialize (H7 (nth i S []) (nth_In _ _ Li)).
      destruct (Nat.ltb_spec j (length (nth i S []))) as [Lj|Lj].
      * rewrite forallb_forall in H7. specialize (H7 _ (nth_In _ 0 Lj)). lia.
      * rewrite (nth_overflow (nth i S [])) by exact Lj. lia.
    + rewrite (nth_overflow S) by exact Li. destruct j; cbn [nth]; lia.
  - intros i Hi.
    rewrite forallb_forall in H1. specialize (H1 i ltac:(apply in_seq; lia)). unfold row_ok in H1. rewrite !andb_true_iff in H1.
    destruct H1 as ((((Q1 & Q5) & Q2) & Q3) & Q4). repeat split; try lia.
    intros j Hj. rewrite forallb_forall in Q1. specialize (Q1 j ltac:(apply in_seq; lia)). lia.
Qed.

Lemma gaps_nonneg : 0 <= gpo /\ 0 <= gpe /\ 0 <= tgpe.
Proof. destruct ok_facts as (G1 & G2 & G3 & _). auto. Qed.

Lemma pot_gap c g : (g = gpo \/ g = gpe \/ g = tgpe) -> 2 * (- g) <= pot c - 2 * gam.
Proof.
  destruct ok_facts as (G1 & G2 & G3 & G4 & G5 & G6 & F). intros Hg. unfold pot, inr. destruct (Nat.ltb_spec (Z.to_nat c) dim) as [L|L]; cbv iota.
  - destruct (F _ L) as (_ & _ & A1 & A2 & A3). destruct Hg as [->|[->| ->]]; lia.
  - destruct Hg as [->|[->| ->]]; lia.
Qed.

Lemma pot_ge_0 c : 0 <= pot c + 2 * gam.
Proof.
  destruct ok_facts as (G1 & G2 & G3 & G4 & G5 & G6 & F). unfold pot, inr. destruct (Nat.ltb_spec (Z.to_nat c) dim) as [L|L]; cbv iota; [|lia].
  destruct (F _ L) as (_ & Q & _). lia.
Qed.

Lemma match_ub r c : 2 * sc (Z.to_nat r) (Z.to_nat c) <= pot r + pot c.
Proof.
  destruct ok_facts as (G1 & G2 & G3 & G4 & G5 & G6 & F). pose proof (pot_ge_0 r) as Pr. pose proof (pot_ge_0 c) as Pc.
  pose proof (G6 (Z.to_nat r) (Z.to_nat c)) as Hm. unfold pot, inr in *.
  destruct (Nat.ltb_spec (Z.to_nat r) dim) as [Lr|Lr]; destruct (Nat.ltb_spec (Z.to_nat c) dim) as [Lc|Lc]; cbv iota in *; try lia.
  destruct (F _ Lr) as (Q & _). apply Q. exact Lc.
Qed.

(* one statement for the three kernels: a cost record all of whose entries are those of the scheme times q, read
   through a residue code per row and per column (q = 1, the size of the group, the product of the two sizes) *)
Section Scaled.
Variables R C : Type.
Variable K : costs AX R C.
Variable M : mcosts AX.
Variable q : Z.
Variable codeR : R -> Z.
Variable codeC : C -> Z.

Definition gapc (v : XT) : Prop := exists g, (g = gpo \/ g = gpe \/ g = tgpe) /\ v = Some (- (q * g)).

Record scaled : Prop := {
  s_q : 1 <= q;
  s_match : forall r c x, exists w, k_match AX R C K r c x = x +! Some (q * w) /\ 2 * w <= pot (codeR r) + pot (codeC c) /\
              (codeR r = codeC c -> w = sc (Z.to_nat (codeR r)) (Z.to_nat (codeR r)));
  s_cols : forall c, gapc (k_ga_ext AX R C K c) /\ gapc (k_ga_open AX R C K c) /\ gapc (k_ga_text AX R C K c) /\ nonpos (k_ga_to_a AX R C K c);
  s_rows : forall r, gapc (k_gb_ext AX R C K r) /\ gapc (k_gb_open AX R C K r) /\ gapc (k_gb_text AX R C K r) /\ nonpos (k_gb_to_a AX R C K r);
  s_meet : meet_nonpos tbk M }.

Lemma gapc_ub v c : 1 <= q -> gapc v -> exists g, v = Some g /\ 2 * g <= q * pot c - 2 * (q * gam).
Proof.
  intros Hq (g & Hg & ->). eexists. split; [reflexivity|].
  pose proof (Z.mul_le_mono_nonneg_l _ _ q ltac:(lia) (pot_gap c g Hg)). lia.
Qed.

Lemma gapc_below c a1 a2 a3 : 1 <= q -> gapc a1 -> gapc a2 -> gapc a3 -> gaps_below a1 a2 a3 (q * pot c - 2 * (q * gam)).
Proof.
  intros Hq A1 A2 A3. destruct (gapc_ub _ c Hq A1) as (g1 & -> & L1). destruct (gapc_ub _ c Hq A2) as (g2 & -> & L2).
  destruct (gapc_ub _ c Hq A3) as (g3 & -> & L3). exists g1, g2, g3. auto 7.
Qed.

Lemma scaled_costs : scaled -> diag_costs tbk K (fun r => q * pot (codeR r)) (fun c => q * pot (codeC c))
  (fun r => q * sc (Z.to_nat (codeR r)) (Z.to_nat (codeR r))) (q * gam) (fun r c => codeR r = codeC c /\ inr (codeC c) = true).
Proof.
  intros [Hq Hm Hc Hr _]. unfold AX in Hm, Hc, Hr. destruct ok_facts as (_ & _ & _ & (_ & G4') & _).
  refine {| dc_gam := Z.mul_pos_pos q gam ltac:(lia) G4'; dc_match_ub := _; dc_match_dg := _; dc_col_gaps := fun c => _; dc_row_gaps := fun r => _;
            dc_col_to_a := fun c => proj2 (proj2 (proj2 (Hc c))); dc_row_to_a := fun r => proj2 (proj2 (proj2 (Hr r))) |}.
  - intros r c v u Hu. destruct (Hm r c v) as (w & -> & Hw & _). destruct v as [v|]; [|exact I]. cbn [xadd ub2] in *.
    pose proof (Z.mul_le_mono_nonneg_l _ _ q ltac:(lia) Hw). lia.
  - intros r c v (Ec & Ic). destruct (Hm r c (Some v)) as (w & -> & _ & Hw). rewrite (Hw Ec). split; [reflexivity|].
    rewrite <- Ec in *. unfold pot. rewrite Ic. lia.
  - destruct (Hc c) as (A1 & A2 & A3 & _). exact (gapc_below (codeC c) _ _ _ Hq A1 A2 A3).
  - destruct (Hr r) as (A1 & A2 & A3 & _). exact (gapc_below (codeR r) _ _ _ Hq A1 A2 A3).
Qed.

(* the rows and columns of a square sub-problem o..e of two operands that both spell x *)
Theorem scaled_square (H : scaled) x RF RB CF CB o e fi li fi' li' sz el :
  Forall (fun c => inr c = true) x -> 0 <= o -> o < e -> e <= Z.of_nat (length x) ->
  let mid := (e - o) / 2 + o in
  map codeR RF = slice x o mid -> map codeR RB = rev (slice x mid e) ->
  map codeC CF = slice x o e -> map codeC CB = rev (slice x o e) ->
  exists v, meetup AX M sz el o e (pass AX R C K fi li (live0 AX) RF CF) (rev (pass AX R C K fi' li' (live0 AX) RB CB)) = (v, 1, mid).
Proof.
  intros Hx Ho Hoe He mid ERF ERB ECF ECB. pose proof (mid_bounds o e Hoe) as Hmid. fold mid in Hmid.
  destruct ok_facts as (_ & _ & _ & (G4 & G4') & _).
  assert (LRF : length RF = Z.to_nat (mid - o)) by (rewrite <- (map_length codeR), ERF; apply slice_length; lia).
  assert (LRB : length RB = Z.to_nat (e - mid)) by (rewrite <- (map_length codeR), ERB, rev_length; apply slice_length; lia).
  assert (LCF : length CF = Z.to_nat (e - o)) by (rewrite <- (map_length codeC), ECF; apply slice_length; lia).
  assert (SP : slice x o e = slice x o mid ++ slice x mid e) by (apply slice_app; lia).
  assert (Hin : forall y, In y (slice x o e) -> inr y = true) by (intros y Hy; rewrite Forall_forall in Hx; apply Hx, (slice_incl x o e), Hy).
  assert (Emid : o + Z.of_nat (length RF) = mid) by lia.
  destruct (square_meet_of tbk tbk_nonneg K _ _ _ _ _ M (scaled_costs H) (s_meet H) RF RB CF CB fi li fi' li' sz el o e o) as (E & HE).
  - lia.
  - lia.
  - apply (map_comp_eq codeC codeC (fun z => q * pot z)). rewrite map_rev, ECB, ECF. reflexivity.
  - intros t r c Hr' Hc'. split.
    + apply (prefix_pairs codeR codeC RF CF (slice x mid e) t r c); [rewrite ECF, ERF; exact SP|exact Hr'|exact Hc'].
    + apply Hin. rewrite <- ECF. apply in_map, (nth_error_In _ _ Hc').
  - intros t r c Hr' Hc'. split.
    + apply (prefix_pairs codeR codeC RB CB (rev (slice x o mid)) t r c); [rewrite ECB, ERB, SP; apply rev_app_distr|exact Hr'|exact Hc'].
    + apply Hin, in_rev. rewrite <- ECB. apply in_map, (nth_error_In _ _ Hc').
  - rewrite Emid. unfold tbk. pose proof (mid_centre o e) as Hab. fold mid in Hab.
    pose proof (Z.mul_le_mono_nonneg_l _ _ unit unit_pos Hab). pose proof (Z.mul_le_mono_nonneg_r 1 q gam ltac:(lia) (s_q H)). lia.
  - exists (Some E). rewrite Emid in HE. exact HE.
Qed.
End Scaled.

Lemma gapc1 g : (g = gpo \/ g = gpe \/ g = tgpe) -> gapc 1 (Some (- g)).
Proof. intros Hg. exists g. rewrite Z.mul_1_l. auto. Qed.

Lemma ss_scaled : scaled Z Z (ss_costs AX PX) (ss_meet AX PX) 1 (fun r => r) (fun c => c).
Proof.
  destruct gaps_nonneg as (G1 & G2 & G3).
  pose proof (conj (gapc1 gpe ltac:(auto)) (conj (gapc1 gpo ltac:(auto)) (conj (gapc1 tgpe ltac:(auto)) (nonpos_neg gpo G1)))) as Hg.
  split; [lia| |intros c; exact Hg|intros r; exact Hg|repeat split; intros; apply nonpos_neg; assumption].
  intros r c x. exists (sc (Z.to_nat r) (Z.to_nat c)). cbn [k_match ss_costs]. rewrite sub_score_X, Z.mul_1_l.
  split; [reflexivity|]. split; [apply match_ub|intros <-; reflexivity].
Qed.

Theorem ss_square x o e : Forall (fun c => inr c = true) x -> 0 <= o -> o < e -> e <= Z.of_nat (length x) ->
  let Kn := ss_kernel AX PX x x in
  let mid := (e - o) / 2 + o in
  exists v, k_meetup AX Kn mid o e (k_forward AX Kn o mid o e (live0 AX)) (k_backward AX Kn mid e o e (live0 AX)) = (v, 1, mid).
Proof.
  intros Hx Ho Hoe He. cbv zeta. cbn [ss_kernel k_meetup k_forward k_backward].
  apply (scaled_square Z Z _ _ 1 (fun r => r) (fun c => c) ss_scaled x); try assumption; apply map_id.
Qed.

Theorem ss_identical_diagonal x : Forall (fun c => inr c = true) x ->
  raw_path AX (ss_kernel AX PX x x) (Z.of_nat (length x)) (Z.of_nat (length x)) = Some (diag (length x)).
Proof.
  intros Hx. rewrite <- seq1_diag. rewrite <- (Nat2Z.id (length x)) at 3. apply (raw_path_diag tbk); [|lia].
  intros o e Ho Hoe He. apply ss_square; assumption.
Qed.
End SS.
End Unit.

(* every value is scaled by 2000 * 2^40: a binary32 of magnitude at least 2^-17 is a multiple of 2^(-17-23), and
   every built-in parameter is 0 or that large (default_schemes_ok) *)
Definition KX : Z := 40.
Definition unitX : Z := 2 ^ KX.
(* the real value of a binary32 bit pattern times 2000 * 2^40, when that is an integer (|v| = 0 or |v| >= 2^-17, finite):
   a normal number is (2^23 + man) * 2^(ex - 127 - 23), with 8388608 = 2^23, 8388607 the mantissa mask, 150 = 127 + 23 *)
Definition exact_of_bits (b : N) : option Z :=
  let z := Z.of_N b in
  let sign := Z.testbit z 31 in
  let ex := Z.land (Z.shiftr z 23) 255 in
  let man := Z.land z 8388607 in
  if ex =? 255 then None
  else if ex =? 0 then (if man =? 0 then Some 0 else None)
  else let sh := ex - 150 + KX in
       if sh <? 0 then None
       else let v := 2000 * (8388608 + man) * 2 ^ sh in Some (if sign then - v else v).

Fixpoint all_some {X} (l : list (option X)) : option (list X) :=
  match l with
  | [] => Some []
  | Some x :: t => match all_some t with Some r => Some (x :: r) | None => None end
  | None :: _ => None
  end.

Definition exact_scheme (p : params) : option (list (list Z) * Z * Z * Z) :=
  match all_some (map (fun row => all_some (map exact_of_bits row)) (p_subm p)),
        exact_of_bits (p_gpo p), exact_of_bits (p_gpe p), exact_of_bits (p_tgpe p) with
  | Some m, Some a, Some b, Some c => Some (m, a, b, c)
  | _, _, _, _ => None
  end.

(* the largest gamma the scheme admits: half of min_i (s(i,i) + 2 min(gpo, gpe, tgpe)) *)
Definition gam_of (d : nat) (m : list (list Z)) (gpo gpe tgpe : Z) : Z :=
  let g := Z.min gpo (Z.min gpe tgpe) in
  let diag := map (fun i => nth i (nth i m []) 0) (seq 0 d) in
  match diag with
  | [] => unitX + 1
  | d :: ds => (fold_left Z.min ds d + 2 * g) / 2
  end.

Definition scheme_of (s : pset) : option (list (list Z) * Z * Z * Z) :=
  match pset_defaults s with Some p => exact_scheme p | None => None end.

(* residue codes in use: 0..L-1 with L the size of the alphabet the built code uses for that kind (Generated/Tables.v:
   5 for nucleotides - A C G T/U and one code for N and the ambiguity letters - and 23 for proteins - 20 amino acids, B, Z, X) *)
Definition dim_of (s : pset) : nat := Z.to_nat (match s with PS_DNA | PS_DNA_INTERNAL | PS_RNA => alpha_defDNA_L | PS_PROTEIN | PS_GON => alpha_ambPROTEIN_L end).
Definition mx_of (m : list (list Z)) : Z := fold_left Z.max (List.concat m) 0.

Definition default_scheme_ok (s : pset) : bool :=
  match scheme_of s with
  | Some (m, a, b, c) => scheme_ok unitX m a b c (gam_of (dim_of s) m a b c) (dim_of s) (mx_of m)
  | None => false
  end.
