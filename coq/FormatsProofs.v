(* The reader core shared by the three formats (a record is the gapped row read so far), line reading,
   60-column chunks, what read_one does on lines it was handed, and the FASTA round trip. *)
From KV Require Import Base Params Weave WeaveProofs Formats.
From Coq Require String.
Local Open Scope Z_scope.

Arguments isalpha : simpl never.
Arguments ispunct : simpl never.
Arguments iscntrl : simpl never.
Arguments isspace : simpl never.

Lemma ispunct_dash : ispunct dash = true. Proof. vm_compute. reflexivity. Qed.
Lemma iscntrl_nl : iscntrl 10 = true. Proof. vm_compute. reflexivity. Qed.
Lemma space_is_space : isspace 32 = true. Proof. vm_compute. reflexivity. Qed.
Lemma space_not_alpha : isalpha 32 = false. Proof. vm_compute. reflexivity. Qed.
Lemma space_not_punct : ispunct 32 = false. Proof. vm_compute. reflexivity. Qed.
Lemma space_not_cntrl : iscntrl 32 = false. Proof. vm_compute. reflexivity. Qed.

(* the bytes of a ctype class, in order: a fact about all of them is a fact about every byte the class accepts *)
Fixpoint trues (t : list bool) (c0 : Z) : list Z :=
  match t with [] => [] | b :: t' => if b then c0 :: trues t' (c0 + 1) else trues t' (c0 + 1) end.

Lemma trues_spec : forall t c0 c, c0 <= c -> nth (Z.to_nat (c - c0)) t false = true -> In c (trues t c0).
Proof.
  induction t as [|b t IH]; intros c0 c Hc H; [destruct (Z.to_nat (c - c0)); discriminate|].
  destruct (Z.eq_dec c c0) as [->|Hne].
  - rewrite Z.sub_diag in H. cbn in H. subst b. left; reflexivity.
  - replace (Z.to_nat (c - c0)) with (S (Z.to_nat (c - (c0 + 1)))) in H by lia. cbn [nth] in H.
    specialize (IH (c0 + 1) c ltac:(lia) H). cbn [trues]. destruct b; [right|]; exact IH.
Qed.

Lemma ctype_forall t (P : Z -> bool) : forallb P (trues t (-128)) = true -> forall c, ctype_lookup t c = true -> P c = true.
Proof.
  intros H c Hc. rewrite forallb_forall in H. apply H. unfold ctype_lookup, nthZ in Hc.
  destruct (Z.ltb_spec (c + 128) 0); [discriminate|]. apply trues_spec; [lia|].
  replace (c - -128) with (c + 128) by lia. exact Hc.
Qed.

Lemma is_prefix_spec : forall w l, is_prefix w l = true <-> exists b, l = w ++ b.
Proof.
  induction w as [|x w IH]; intros l; cbn [is_prefix].
  - split; [eexists; reflexivity|reflexivity].
  - destruct l as [|y l]; [split; [discriminate|intros (b & E); discriminate]|].
    rewrite andb_true_iff, Z.eqb_eq, IH. split.
    + intros (-> & b & ->). eexists; reflexivity.
    + intros (b & E). injection E as -> ->. eauto.
Qed.

Lemma contains_spec w : forall hay, contains hay w = true <-> exists a b, hay = a ++ w ++ b.
Proof.
  induction hay as [|c hay IH]; cbn [contains]; rewrite orb_true_iff, is_prefix_spec.
  - split; [intros [(b & E)|H]; [exists [], b; exact E|discriminate]|].
    intros (a & b & E). left. destruct a; [eauto|discriminate].
  - rewrite IH. split.
    + intros [(b & E)|(a & b & E)]; [exists [], b; exact E|exists (c :: a), b; rewrite E; reflexivity].
    + intros (a & b & E). destruct a as [|c' a]; [left; eauto|right]. injection E as _ E. eauto.
Qed.

Lemma byte_has (l : list Z) (w : String.string) (c : Z) :
  In c (bytes_of_string w) -> ~ In c l -> has l w = false.
Proof.
  intros Hc Hn. unfold has. destruct (contains l _) eqn:E; [|reflexivity].
  apply contains_spec in E as (a & b & ->). exfalso. apply Hn. rewrite !in_app_iff. auto.
Qed.

(* the state of a record while its lines are read is the gapped row read so far; gaps[] has len + 1 counters *)
Definition row_of (r : rrec) : list Z := expand (rr_gaps r) (rr_res r).
Definition rec_wf (r : rrec) : Prop := length (rr_gaps r) = S (length (rr_res r)).

Definition norm_byte (c : Z) : list Z := if isalpha c then [c] else if ispunct c then [dash] else [].
Definition norm (l : list Z) : list Z := flat_map norm_byte l.

Lemma incr_last_snoc : forall g k, incr_last (g ++ [k]) = g ++ [S k].
Proof.
  induction g as [|x g IH]; intros k; [reflexivity|].
  simpl. rewrite IH. destruct (g ++ [k]) eqn:E; [destruct g; discriminate|reflexivity].
Qed.

Lemma expand_snoc_letter : forall res g k c, length g = length res ->
  expand (g ++ [k] ++ [0%nat]) (res ++ [c]) = expand (g ++ [k]) res ++ [c].
Proof.
  induction res as [|r res IH]; intros [|g0 g] k c H; simpl in H; try lia.
  - reflexivity.
  - change ((g0 :: g) ++ [k] ++ [0%nat]) with (g0 :: (g ++ [k] ++ [0%nat])).
    change ((r :: res) ++ [c]) with (r :: (res ++ [c])).
    change ((g0 :: g) ++ [k]) with (g0 :: (g ++ [k])).
    rewrite !expand_cons_cons, IH by lia. rewrite <- app_assoc. reflexivity.
Qed.

Lemma expand_snoc_gap : forall res g k, length g = length res ->
  expand (g ++ [S k]) res = expand (g ++ [k]) res ++ [dash].
Proof.
  induction res as [|r res IH]; intros [|g0 g] k H; simpl in H; try lia.
  - simpl. change (dash :: repeat dash k) with (repeat dash (S k)).
    replace (S k) with (k + 1)%nat by lia. rewrite repeat_app. reflexivity.
  - change ((g0 :: g) ++ [S k]) with (g0 :: (g ++ [S k])).
    change ((g0 :: g) ++ [k]) with (g0 :: (g ++ [k])).
    rewrite !expand_cons_cons, IH by lia. rewrite <- app_assoc. reflexivity.
Qed.

Lemma rec_wf_split r : rec_wf r -> exists g k, rr_gaps r = g ++ [k] /\ length g = length (rr_res r).
Proof.
  unfold rec_wf. intro H. destruct (rr_gaps r) as [|x l] eqn:E using rev_ind; [simpl in H; lia|].
  exists l, x. split; auto. rewrite app_length in H. simpl in H. lia.
Qed.

Lemma feed_byte_row r c : rec_wf r ->
  rec_wf (feed_byte r c) /\ row_of (feed_byte r c) = row_of r ++ norm_byte c /\
  rr_name (feed_byte r c) = rr_name r /\
  rr_res (feed_byte r c) = rr_res r ++ (if isalpha c then [c] else []).
Proof.
  intro Hwf. destruct (rec_wf_split r Hwf) as (g & k & Hg & Hl).
  unfold feed_byte, norm_byte, row_of, rec_wf in *.
  destruct (isalpha c).
  - cbn [rr_gaps rr_res rr_name]. repeat split; auto.
    + rewrite !app_length. simpl. lia.
    + rewrite Hg, <- app_assoc. apply expand_snoc_letter. exact Hl.
  - destruct (ispunct c); cbn [rr_gaps rr_res rr_name]; rewrite ?app_nil_r; repeat split; auto.
    + rewrite Hg, incr_last_snoc, !app_length in *. simpl in *. lia.
    + rewrite Hg, incr_last_snoc. apply expand_snoc_gap. exact Hl.
Qed.

Theorem feed_line_row : forall l r, rec_wf r ->
  rec_wf (feed_line r l) /\ row_of (feed_line r l) = row_of r ++ norm l /\
  rr_name (feed_line r l) = rr_name r /\ rr_res (feed_line r l) = rr_res r ++ filter isalpha l.
Proof.
  unfold feed_line. induction l as [|c l IH]; intros r Hwf; simpl.
  - rewrite !app_nil_r. auto.
  - destruct (feed_byte_row r c Hwf) as (W & R & N & S).
    destruct (IH _ W) as (W' & R' & N' & S'). repeat split; auto.
    + rewrite R', R. unfold norm. simpl. rewrite <- app_assoc. reflexivity.
    + congruence.
    + rewrite S', S. destruct (isalpha c); simpl; rewrite <- app_assoc; reflexivity.
Qed.

Lemma feed_line_wf l r : rec_wf r -> rec_wf (feed_line r l).
Proof. intro H. apply (feed_line_row l r H). Qed.

Lemma feed_line_concat : forall chunks r, fold_left feed_line chunks r = feed_line r (concat chunks).
Proof.
  induction chunks as [|c cs IH]; intros r; [reflexivity|]. cbn [fold_left concat].
  rewrite IH. symmetry. apply fold_left_app.
Qed.

(* C06/C04 core: feeding the pieces of a gapped row, however it is cut into lines, rebuilds the
   row (gaps in the same places) and keeps exactly its letters as residues *)
Theorem feed_chunks_row : forall chunks r, rec_wf r ->
  let r' := fold_left feed_line chunks r in
  rec_wf r' /\ row_of r' = row_of r ++ norm (concat chunks) /\ rr_name r' = rr_name r /\
  rr_res r' = rr_res r ++ filter isalpha (concat chunks).
Proof. intros chunks r W. cbv zeta. rewrite feed_line_concat. apply feed_line_row, W. Qed.

Lemma empty_rec_wf n : rec_wf (empty_rec n). Proof. reflexivity. Qed.
Lemma empty_rec_row n : row_of (empty_rec n) = []. Proof. reflexivity. Qed.

Definition read_rec (name : list Z) (pieces : list (list Z)) : rrec := fold_left feed_line pieces (empty_rec name).

Lemma read_rec_spec name pieces :
  rec_wf (read_rec name pieces) /\ row_of (read_rec name pieces) = norm (concat pieces) /\
  rr_name (read_rec name pieces) = name /\ rr_res (read_rec name pieces) = filter isalpha (concat pieces).
Proof. exact (feed_chunks_row pieces (empty_rec name) (empty_rec_wf name)). Qed.

Lemma read_rec_snoc name pieces p : feed_line (read_rec name pieces) p = read_rec name (pieces ++ [p]).
Proof. unfold read_rec. rewrite fold_left_app. reflexivity. Qed.

Lemma norm_app a b : norm (a ++ b) = norm a ++ norm b.
Proof. apply flat_map_app. Qed.

Lemma norm_cons_space p : norm (32 :: p) = norm p.
Proof. unfold norm. cbn [flat_map]. unfold norm_byte at 1. rewrite space_not_alpha, space_not_punct. reflexivity. Qed.

Lemma norm_spaces k : norm (repeat space k) = [].
Proof. induction k as [|k IH]; [reflexivity|]. cbn [repeat]. unfold space at 1. rewrite norm_cons_space. exact IH. Qed.

Definition rowchar (c : Z) : Prop := isalpha c = true \/ c = dash.

Lemma norm_rowchars l : Forall rowchar l -> norm l = l.
Proof.
  induction 1 as [|c l [Hc| ->] Hl IH]; [reflexivity| |]; unfold norm in *; cbn [flat_map]; unfold norm_byte at 1.
  - rewrite Hc. cbn [app]. f_equal. exact IH.
  - rewrite isalpha_dash, ispunct_dash. cbn [app]. f_equal. exact IH.
Qed.

Lemma filter_norm l : filter isalpha (norm l) = filter isalpha l.
Proof.
  induction l as [|c l IH]; [reflexivity|]. change (norm (c :: l)) with (norm_byte c ++ norm l).
  rewrite filter_app. apply (eq_trans (f_equal (app _) IH)).  (* the two sides instantiate filter at byte and at Z *)
  unfold norm_byte. cbn [filter]. destruct (isalpha c) eqn:E; cbn [filter app]; [rewrite E; reflexivity|].
  destruct (ispunct c); cbn [filter app]; [rewrite isalpha_dash; reflexivity|reflexivity].
Qed.

Definition clean_line (l : list Z) : Prop := Forall (fun c => iscntrl c = false) l.

Lemma cut_cntrl_clean l : clean_line l -> cut_cntrl l = l.
Proof. induction 1 as [|c l Hc Hl IH]; simpl; auto. rewrite Hc, IH. reflexivity. Qed.

Lemma getlines_line : forall l rest cur, clean_line l ->
  getlines_aux (l ++ 10 :: rest) cur = (rev cur ++ l) :: getlines_aux rest [].
Proof.
  induction l as [|c l IH]; intros rest cur H; simpl.
  - rewrite app_nil_r. reflexivity.
  - inversion H as [|? ? Hc Hl]; subst. destruct (Z.eqb_spec c 10) as [->|_]; [rewrite iscntrl_nl in Hc; discriminate|].
    rewrite IH by assumption. simpl. rewrite <- app_assoc. reflexivity.
Qed.

Theorem read_lines_unlines : forall ls, Forall clean_line ls -> read_lines (unlines ls) = ls.
Proof.
  unfold read_lines, unlines. induction ls as [|l ls IH]; intro H; [reflexivity|].
  inversion H as [|? ? Hl Hls]; subst. simpl. rewrite <- app_assoc. simpl.
  rewrite getlines_line by exact Hl.
  simpl. rewrite cut_cntrl_clean by exact Hl. f_equal. apply IH. exact Hls.
Qed.

Lemma existsb_firstn_false {A} (f : A -> bool) n l : Forall (fun x => f x = false) l -> existsb f (firstn n l) = false.
Proof.
  intro H. revert n. induction H as [|x l Hx Hl IH]; intros [|n]; simpl; auto. rewrite Hx, IH. reflexivity.
Qed.

Lemma detect_clu lines : hint_clu (hd [] lines) = true -> detect_format lines = FORMAT_CLU.
Proof. destruct lines as [|l0 rest]; [discriminate|]. intros H. unfold detect_format. cbn [firstn existsb hd] in *. rewrite H. reflexivity. Qed.

Lemma detect_msf lines : Forall (fun l => hint_clu l = false) lines -> hint_msf (hd [] lines) = true ->
  detect_format lines = FORMAT_MSF.
Proof.
  destruct lines as [|l0 rest]; [discriminate|]. intros C H. unfold detect_format.
  rewrite (existsb_firstn_false hint_clu) by exact C. cbn [firstn existsb hd] in *. rewrite H. reflexivity.
Qed.

Lemma detect_fa lines : Forall (fun l => hint_clu l = false /\ hint_msf l = false) lines -> hint_fa (hd [] lines) = true ->
  detect_format lines = FORMAT_FA.
Proof.
  destruct lines as [|l0 rest]; [discriminate|]. intros C H. unfold detect_format.
  rewrite (existsb_firstn_false hint_clu), (existsb_firstn_false hint_msf) by (eapply Forall_impl; [|exact C]; cbn beta; tauto).
  cbn [firstn existsb hd] in *. rewrite H. reflexivity.
Qed.

Lemma read_one_unlines lines m : Forall clean_line lines -> length (hd [] lines) <> 1%nat ->
  detect_format lines = FORMAT_FA /\ read_fasta lines = Some m \/
  detect_format lines = FORMAT_MSF /\ read_msf lines = Some m \/
  detect_format lines = FORMAT_CLU /\ read_clu lines = Some m ->
  read_one (unlines lines) = Some (Some m).
Proof.
  intros C L H. unfold read_one. rewrite read_lines_unlines by exact C.
  destruct lines as [|l0 rest]; [destruct H as [[E _]|[[E _]|[E _]]]; discriminate E|].
  apply Nat.eqb_neq in L. cbn [hd] in L. rewrite L. destruct H as [[-> ->]|[[-> ->]|[-> ->]]]; reflexivity.
Qed.

Lemma chunks_concat : forall fuel k l, (0 < k)%nat -> (length l < fuel)%nat -> concat (chunks fuel k l) = l.
Proof.
  induction fuel as [|f IH]; intros k l Hk Hf; [lia|].
  destruct l as [|x l]; [reflexivity|]. cbn [chunks concat].
  rewrite IH; auto.
  - apply firstn_skipn.
  - rewrite skipn_length. cbn [length] in *. lia.
Qed.

Lemma chunk60_concat row : concat (chunk60 row) = row.
Proof. apply chunks_concat; lia. Qed.

Lemma chunk60_Forall (P : Z -> Prop) row : Forall P row -> Forall (Forall P) (chunk60 row).
Proof. intros H. apply Forall_concat. rewrite chunk60_concat. exact H. Qed.

Lemma chunks_full : forall fuel k l, (0 < k)%nat -> (length l < fuel)%nat ->
  forall pre last, chunks fuel k l = pre ++ [last] -> Forall (fun ch => length ch = k) pre /\ (1 <= length last <= k)%nat.
Proof.
  induction fuel as [|f IH]; intros k l Hk Hf pre last E; [lia|].
  destruct l as [|x l]; [destruct pre; discriminate|]. cbn [chunks] in E.
  destruct pre as [|p pre].
  - simpl in E. injection E as E1 E2. split; [constructor|].
    rewrite <- E1, firstn_length. cbn [length]. lia.
  - simpl in E. injection E as E1 E2.
    assert (chunks f k (skipn k (x :: l)) <> []) as Hne by (rewrite E2; destruct pre; discriminate).
    assert (k < length (x :: l))%nat as Hlen.
    { destruct (Nat.lt_ge_cases k (length (x :: l))); auto.
      rewrite skipn_all2 in Hne by lia. destruct f; simpl in Hne; congruence. }
    destruct (IH k (skipn k (x :: l)) Hk ltac:(rewrite skipn_length; cbn [length] in *; lia) pre last E2) as [A B].
    split; auto. constructor; auto. rewrite <- E1, firstn_length. lia.
Qed.

Theorem fasta_chunks_nonempty_iff row : chunk60 row = [] <-> row = [].
Proof.
  split; intro H.
  - rewrite <- (chunk60_concat row), H. reflexivity.
  - subst. reflexivity.
Qed.

Definition fasta_lines (rows : list (list Z * list Z)) : list (list Z) :=
  flat_map (fun nr => (62 :: fst nr) :: chunk60 (snd nr)) rows.

Lemma write_fasta_unlines rows : write_fasta rows = unlines (fasta_lines rows).
Proof.
  unfold write_fasta, unlines, fasta_lines. induction rows as [|[n r] rows IH]; [reflexivity|].
  cbn [flat_map fst snd]. rewrite flat_map_app. cbn [flat_map]. rewrite IH.
  rewrite <- !app_assoc. simpl. rewrite <- !app_assoc. reflexivity.
Qed.

Definition good_row (row : list Z) : Prop := Forall rowchar row.

(* table facts: residue letters are neither control bytes nor blank, '!', '/', ':' or '>' *)
Lemma alpha_facts_b :
  forallb (fun c => negb (iscntrl c) && negb (c =? 32) && negb (c =? 33) && negb (c =? 47) && negb (c =? 58) && negb (c =? 62))
          (trues ctype_isalpha (-128)) = true.
Proof. vm_compute. reflexivity. Qed.

Lemma rowchar_facts c : rowchar c -> iscntrl c = false /\ c <> 32 /\ c <> 33 /\ c <> 47 /\ c <> 58 /\ c <> 62.
Proof.
  intros [H| ->]; [|vm_compute; repeat split; congruence].
  pose proof (ctype_forall ctype_isalpha _ alpha_facts_b c H) as T. cbv beta in T.
  rewrite !andb_true_iff, !negb_true_iff, !Z.eqb_neq in T. tauto.
Qed.

Definition rec_of (nr : list Z * list Z) : rrec := fold_left feed_line (chunk60 (snd nr)) (empty_rec (fst nr)).

Lemma rec_of_props nr : good_row (snd nr) ->
  rr_name (rec_of nr) = fst nr /\ row_of (rec_of nr) = snd nr /\ rr_res (rec_of nr) = filter isalpha (snd nr).
Proof.
  intro Hg. destruct (read_rec_spec (fst nr) (chunk60 (snd nr))) as (_ & R & N & S).
  rewrite chunk60_concat in *. rewrite norm_rowchars in R by exact Hg. auto.
Qed.

Lemma fasta_chunks_fold : forall chs done r h, Forall (fun ch => hint_fa ch = false) chs ->
  fold_left fasta_step chs (Some (done, Some r, h)) =
  Some (done, Some (fold_left feed_line chs r), fold_left count_line chs h).
Proof.
  induction chs as [|ch chs IH]; intros done r h Hh; [reflexivity|].
  inversion Hh as [|? ? H1 H2]; subst. cbn [fold_left fasta_step]. rewrite H1. apply IH, H2.
Qed.

Lemma chunk_no_hint row : good_row row -> Forall (fun ch => hint_fa ch = false) (chunk60 row).
Proof.
  intro Hg. eapply Forall_impl; [|exact (chunk60_Forall _ row Hg)]. intros [|c ch] H; [reflexivity|].
  inversion H as [|? ? Hc _]; subst. apply Z.eqb_neq, (rowchar_facts c Hc).
Qed.

Definition closed (done : list rrec) (cur : option rrec) : list rrec :=
  match cur with Some r => r :: done | None => done end.

Lemma read_fasta_fold : forall rows done cur h,
  Forall (fun nr => good_row (snd nr)) rows ->
  exists done' cur' h',
    fold_left fasta_step (fasta_lines rows) (Some (done, cur, h)) = Some (done', cur', h') /\
    closed done' cur' = rev (map rec_of rows) ++ closed done cur.
Proof.
  induction rows as [|[n row] rows IH]; intros done cur h Hg.
  - exists done, cur, h. split; reflexivity.
  - inversion Hg as [|? ? Hrow Hrest]; subst. cbn [snd fst] in Hrow.
    cbn [fasta_lines flat_map fst snd]. rewrite <- app_comm_cons. cbn [fold_left].
    rewrite fold_left_app.
    assert (fasta_step (Some (done, cur, h)) (62 :: n) = Some (closed done cur, Some (empty_rec n), h)) as ->.
    { unfold fasta_step, hint_fa. rewrite Z.eqb_refl. destruct cur; reflexivity. }
    rewrite (fasta_chunks_fold (chunk60 row) (closed done cur) (empty_rec n) h (chunk_no_hint row Hrow)).
    destruct (IH (closed done cur) (Some (fold_left feed_line (chunk60 row) (empty_rec n)))
                 (fold_left count_line (chunk60 row) h) Hrest) as (d' & c' & h' & E & C).
    exists d', c', h'. split; [exact E|].
    rewrite C. cbn [closed map rev]. rewrite <- app_assoc. reflexivity.
Qed.

(* C06 (FASTA), record level: the lines write_msa_fasta produces are read back as the same names,
   the same gapped rows and the letters of each row as residues *)
Theorem read_fasta_written rows :
  Forall (fun nr => good_row (snd nr)) rows ->
  exists h, read_fasta (fasta_lines rows) = Some (mkM (map rec_of rows) h).
Proof.
  intro Hg. unfold read_fasta.
  destruct (read_fasta_fold rows [] None (repeat 0 128) Hg) as (d & c & h & E & C).
  rewrite E. exists h. f_equal. f_equal.
  change (match c with Some r => r :: d | None => d end) with (closed d c).
  rewrite C. cbn [closed]. rewrite app_nil_r, rev_involutive. reflexivity.
Qed.

(* names that survive line reading and cannot be mistaken for a format hint: every Clustal marker contains a blank,
   the MSF markers '!' (33) or ':' (58) *)
Definition name_ok (n : list Z) : Prop :=
  n <> [] /\ clean_line n /\ ~ In 32 n /\ ~ In 33 n /\ ~ In 58 n.

(* bytes that survive line reading and occur in no Clustal or MSF marker *)
Definition plain (c : Z) : Prop := iscntrl c = false /\ c <> 32 /\ c <> 33 /\ c <> 58.

Lemma no_hints l : Forall plain l -> hint_clu l = false /\ hint_msf l = false.
Proof.
  intros H. unfold hint_clu, hint_msf.
  rewrite (byte_has l s_clu1 32), (byte_has l s_clu2 32), (byte_has l s_clu3 32),
          (byte_has l s_msf1 33), (byte_has l s_msf2 33), (byte_has l s_msf3 58);
    try (vm_compute; tauto); auto;
    intros I; destruct (proj1 (Forall_forall _ _) H _ I) as (_ & ? & ? & ?); congruence.
Qed.

Lemma name_ok_plain n : name_ok n -> Forall plain n.
Proof.
  intros (_ & C & A & B & D). apply Forall_forall. intros c Hc.
  split; [exact (proj1 (Forall_forall _ _) C c Hc)|]. repeat split; intros ->; tauto.
Qed.

Lemma fasta_lines_plain rows :
  Forall (fun nr => name_ok (fst nr) /\ good_row (snd nr)) rows -> Forall (Forall plain) (fasta_lines rows).
Proof.
  induction 1 as [|[n row] rows [Hn Hg] _ IH]; [constructor|]. cbn [fasta_lines flat_map fst snd] in *.
  constructor; [constructor; [vm_compute; repeat split; congruence|apply name_ok_plain, Hn]|].
  apply Forall_app. split; [|exact IH]. apply chunk60_Forall. eapply Forall_impl; [|exact Hg].
  intros c Hc. pose proof (rowchar_facts c Hc). unfold plain. tauto.
Qed.

(* C06 (FASTA), file level: kalign_read_input on the bytes write_msa_fasta produced *)
Theorem read_one_written_fasta rows :
  rows <> [] -> Forall (fun nr => name_ok (fst nr) /\ good_row (snd nr)) rows ->
  exists h, read_one (write_fasta rows) = Some (Some (mkM (map rec_of rows) h)).
Proof.
  intros Hne Hall. pose proof (fasta_lines_plain rows Hall) as Hp.
  destruct (read_fasta_written rows) as (h & Hr); [eapply Forall_impl; [|exact Hall]; cbn beta; tauto|].
  exists h. rewrite write_fasta_unlines.
  destruct rows as [|[n row] rows]; [congruence|]. inversion Hall as [|? ? [(Hn & _) _] _]; subst.
  apply read_one_unlines.
  - eapply Forall_impl; [|exact Hp]. intros l Hl. eapply Forall_impl; [|exact Hl]. intros c Hc. apply Hc.
  - cbn [fasta_lines flat_map hd fst app]. destruct n; [destruct (Hn eq_refl)|discriminate].
  - left. split; [|exact Hr]. apply detect_fa; [|reflexivity]. eapply Forall_impl; [|exact Hp]. exact no_hints.
Qed.
