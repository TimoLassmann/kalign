(* C16: a call's result depends only on the objects it is given - proofs over History.v. *)
From KV Require Import Base Params Detect History.
Local Open Scope Z_scope.

Lemma run_state_fold acore : forall cs x,
  fst (run_history acore x cs) = fold_left (fun x c => fst (step acore x c)) cs x.
Proof.
  induction cs as [|c cs IH]; intros x; [reflexivity|]. cbn [run_history fold_left]. rewrite <- IH.
  destruct (step acore x c) as [x' r]. cbn [fst]. destruct (run_history acore x' cs). reflexivity.
Qed.

Section HistProofs.
Variable acore : ambient -> Z -> params -> list (list Z) -> list (list Z) -> list (list nat).
(* The one assumption about the numeric pipeline: of the ambient state it reads at most the two
   fields kalign_run itself sets before starting it (thread count, broadcast mask) - never what
   earlier calls left in memory.  This is the modelling claim the history runs test on the code. *)
Hypothesis acore_prepared : forall G G' t, acore (prepared G t) = acore (prepared G' t).

Notation step := (step acore).
Notation run_history := (run_history acore).

Definition sim (D : list handle) (x y : ambient * store) : Prop := forall h, In h D -> snd x h = snd y h.

Lemma upd_same s h v : upd s h v h = v.
Proof. unfold upd. rewrite Nat.eqb_refl. reflexivity. Qed.
Lemma upd_other s h v k : k <> h -> upd s h v k = s k.
Proof. unfold upd. intro N. destruct (Nat.eqb k h) eqn:E; [apply Nat.eqb_eq in E; contradiction|reflexivity]. Qed.

Lemma step_frame : forall x c h, ~ In h (handles c) -> snd (fst (step x c)) h = snd x h.
Proof.
  intros [G s] c h N. destruct c; simpl in *.
  - destruct (read_files_into _ _) as [cur ok]. simpl. apply upd_other. intuition.
  - destruct (s h0) as [o|]; [|reflexivity].
    destruct (run_object _ _ _ _ _ _ _ _); simpl; [apply upd_other; intuition|reflexivity].
  - destruct (s h0); reflexivity.
  - destruct (s h1) as [a|]; [|reflexivity]. destruct (s h2) as [b|]; [|reflexivity]. simpl.
    rewrite upd_other by intuition. apply upd_other. intuition.
  - apply upd_other. intuition.
  - reflexivity.
Qed.

Lemma run_object_ambient G G' o t ty g e tg : run_object acore G o t ty g e tg = run_object acore G' o t ty g e tg.
Proof. unfold run_object. rewrite (acore_prepared G G'). reflexivity. Qed.

Lemma kalign_array_ambient G G' seqs t ty g e tg : kalign_array acore G seqs t ty g e tg = kalign_array acore G' seqs t ty g e tg.
Proof. unfold kalign_array. destruct (detect_alphabet _); [|reflexivity]. rewrite (acore_prepared G G'). reflexivity. Qed.

(* locality: result and the named objects afterwards depend only on the named objects before -
   not on other objects, not on the ambient state *)
Lemma step_local : forall x y c, sim (handles c) x y ->
  snd (step x c) = snd (step y c) /\ sim (handles c) (fst (step x c)) (fst (step y c)).
Proof.
  intros [G1 s1] [G2 s2] c A. unfold sim in *. simpl in A.
  destruct c; simpl in *.
  - rewrite (A h) by auto. destruct (read_files_into _ _) as [cur ok]. simpl. split; [reflexivity|].
    intros k [<-|[]]. rewrite !upd_same. reflexivity.
  - rewrite (A h) by auto. destruct (s2 h) as [o|]; [|split; [reflexivity|simpl; intros k [<-|[]]; auto]].
    rewrite (run_object_ambient G1 G2). destruct (run_object _ _ _ _ _ _ _ _); simpl.
    + split; [reflexivity|]. intros k [<-|[]]. rewrite !upd_same. reflexivity.
    + split; [reflexivity|]. intros k [<-|[]]. auto.
  - rewrite (A h) by auto. destruct (s2 h); simpl; (split; [reflexivity|intros k [<-|[]]; auto]).
  - rewrite (A h1), (A h2) by auto. destruct (s2 h1) as [a|]; [|split; [reflexivity|simpl; intros k [<-|[<-|[]]]; auto]].
    destruct (s2 h2) as [b|]; [|split; [reflexivity|simpl; intros k [<-|[<-|[]]]; auto]].
    simpl. split; [reflexivity|]. intros k Hk. unfold upd.
    destruct (Nat.eqb k h2); [reflexivity|]. destruct (Nat.eqb k h1); [reflexivity|].
    destruct Hk as [<-|[<-|[]]]; auto.
  - split; [reflexivity|]. intros k [<-|[]]. rewrite !upd_same. reflexivity.
  - rewrite (kalign_array_ambient G1 G2). split; [reflexivity|]. intros k [].
Qed.

Lemma run_snoc_state x a c : fst (run_history x (a ++ [c])) = fst (step (fst (run_history x a)) c).
Proof. rewrite !run_state_fold. apply fold_left_app. Qed.

Lemma intersects_false a D : intersects a D = false -> forall h, In h D -> ~ In h a.
Proof.
  unfold intersects. intros H h HD Ha.
  assert (existsb (fun x => existsb (Nat.eqb x) D) a = true).
  { apply existsb_exists. exists h. split; [assumption|]. apply existsb_exists. exists h. split; [assumption|apply Nat.eqb_refl]. }
  congruence.
Qed.

Lemma slice_rev_sim : forall r D x y, (forall h, snd x h = snd y h) ->
  sim D (fst (run_history x (rev r))) (fst (run_history y (slice_rev D r))).
Proof.
  induction r as [|c r IH]; intros D x y E.
  - simpl. intros h _. apply E.
  - cbn [rev slice_rev]. rewrite run_snoc_state.
    destruct (intersects (handles c) D) eqn:I.
    + rewrite run_snoc_state.
      specialize (IH (handles c ++ D) x y E).
      set (X := fst (run_history x (rev r))) in *. set (Y := fst (run_history y (slice_rev (handles c ++ D) r))) in *.
      assert (L : sim (handles c) X Y) by (intros h Hh; apply IH; apply in_or_app; auto).
      destruct (step_local X Y c L) as [_ S].
      intros h Hh. destruct (in_dec Nat.eq_dec h (handles c)) as [Hc|Hc].
      * apply S. exact Hc.
      * rewrite !step_frame by exact Hc. apply IH. apply in_or_app. auto.
    + specialize (IH D x y E). intros h Hh.
      rewrite step_frame by (eapply intersects_false; eauto). apply IH. exact Hh.
Qed.

(* C16: the result of a call after any history equals its result after only the calls that built
   its arguments, started from any ambient state (a fresh process) with the same initial objects *)
Theorem history_slice : forall pre c x y, (forall h, snd x h = snd y h) ->
  snd (step (fst (run_history x pre)) c) = snd (step (fst (run_history y (slice (handles c) pre))) c).
Proof.
  intros pre c x y E. unfold slice.
  pose proof (slice_rev_sim (rev pre) (handles c) x y E) as S. rewrite rev_involutive in S.
  apply step_local. exact S.
Qed.

(* two histories with the same slice towards a call give that call the same result: in particular
   calls on unrelated objects can be inserted or deleted freely *)
Corollary same_slice_same_result : forall pre1 pre2 c x y, (forall h, snd x h = snd y h) ->
  slice (handles c) pre1 = slice (handles c) pre2 ->
  snd (step (fst (run_history x pre1)) c) = snd (step (fst (run_history y pre2)) c).
Proof.
  intros pre1 pre2 c x y E S.
  rewrite (history_slice pre1 c x y E). rewrite S. symmetry. apply history_slice. intro h. reflexivity.
Qed.

Lemma frees_state : forall L x, let x' := fst (run_history x (map CFree L)) in
  (forall h, In h L -> snd x' h = None) /\ (forall h, ~ In h L -> snd x' h = snd x h).
Proof.
  induction L as [|k L IH]; intros [G s]; [split; [intros h []|reflexivity]|].
  cbv zeta. rewrite run_state_fold. cbn [map fold_left step fst]. rewrite <- run_state_fold.
  destruct (IH (G, upd s k None)) as [I1 I2]. cbn [snd] in I2. split.
  - intros h [<-|Hh]; [|apply I1; exact Hh].
    destruct (in_dec Nat.eq_dec k L) as [Hk|Hk]; [apply I1; exact Hk|]. rewrite I2 by exact Hk. apply upd_same.
  - intros h N. rewrite I2 by (intro; apply N; right; assumption). apply upd_other. intros ->. apply N. left. reflexivity.
Qed.

Lemma filter_none (s : store) : forall L, (forall h, In h L -> s h = None) ->
  filter (fun h => match s h with Some _ => true | None => false end) L = [].
Proof.
  induction L as [|h L IH]; intro F; simpl; [reflexivity|].
  rewrite (F h) by (left; reflexivity). apply IH. intros k Hk. apply F. right. exact Hk.
Qed.

End HistProofs.

(* kalign_write_msa is read-only: it changes neither the store nor the ambient state, so the write calls of a history can
   be dropped without changing any later result *)
Section WriteReadOnly.
Variable acore : ambient -> Z -> params -> list (list Z) -> list (list Z) -> list (list nat).
Definition is_write (c : call) : bool := match c with CWrite _ _ _ _ _ => true | _ => false end.
Definition drop_writes (cs : list call) : list call := filter (fun c => negb (is_write c)) cs.

Lemma step_write_read_only x h fmt b d v : fst (step acore x (CWrite h fmt b d v)) = x.
Proof. destruct x as [G s]. cbn [step]. destruct (s h); reflexivity. Qed.

Lemma run_history_drop_writes : forall cs x, fst (run_history acore x cs) = fst (run_history acore x (drop_writes cs)).
Proof.
  intros cs x. rewrite !run_state_fold. revert x. induction cs as [|c cs IH]; intros x; [reflexivity|].
  cbn [drop_writes filter fold_left]. fold (drop_writes cs). destruct c; cbn [is_write negb fold_left]; try apply IH.
  rewrite step_write_read_only. apply IH.
Qed.
End WriteReadOnly.
