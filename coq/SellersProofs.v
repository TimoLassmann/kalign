(* C11, specification side: the column recurrence [sed] IS the minimum, over all substrings u of the text, of
   the edit distance between u and the pattern (Sellers 1980).  Edit distance is defined the standard way, as
   the least cost of an edit script: [script c a b] says that a can be turned into b with c unit-cost
   substitutions, deletions and insertions. *)
From Coq Require Import ZArith List Lia.
From KV Require Import ListFacts Bpm.
Import ListNotations.
Local Open Scope Z_scope.

Inductive script : Z -> list Z -> list Z -> Prop :=
| s_nil : script 0 [] []
| s_keep x a b c : script c a b -> script c (x :: a) (x :: b)
| s_sub x y a b c : script c a b -> script (c + 1) (x :: a) (y :: b)
| s_del x a b c : script c a b -> script (c + 1) (x :: a) b
| s_ins y a b c : script c a b -> script (c + 1) a (y :: b).

Lemma script_nonneg c a b : script c a b -> 0 <= c.
Proof. induction 1; lia. Qed.

Lemma script_nil_l : forall b c, script c [] b -> c = Z.of_nat (length b).
Proof.
  induction b as [|y b IH]; intros c H; inversion H; subst; [reflexivity|].
  cbn [length]. match goal with Hs : script _ [] b |- _ => rewrite (IH _ Hs) end. lia.
Qed.
Lemma script_ins_all : forall b, script (Z.of_nat (length b)) [] b.
Proof.
  induction b as [|y b IH]; [constructor|]. cbn [length]. replace (Z.of_nat (S (length b))) with (Z.of_nat (length b) + 1) by lia.
  constructor. exact IH.
Qed.
Lemma script_del_all : forall a, script (Z.of_nat (length a)) a [].
Proof.
  induction a as [|y b IH]; [constructor|]. cbn [length]. replace (Z.of_nat (S (length b))) with (Z.of_nat (length b) + 1) by lia.
  constructor. exact IH.
Qed.

Definition delta (x y : Z) : Z := if x =? y then 0 else 1.

Lemma script_app : forall c1 a1 b1, script c1 a1 b1 -> forall c2 a2 b2, script c2 a2 b2 ->
  script (c1 + c2) (a1 ++ a2) (b1 ++ b2).
Proof.
  induction 1 as [|x a b c _ IH|x y a b c _ IH|x a b c _ IH|y a b c _ IH]; intros c2 a2 b2 H2; cbn [app];
    [exact H2|constructor; apply IH, H2|..]; replace (c + 1 + c2) with (c + c2 + 1) by lia; constructor; apply IH, H2.
Qed.

Lemma script_snoc_pair c a b x y : script c a b -> script (c + delta x y) (a ++ [x]) (b ++ [y]).
Proof.
  intros H. apply (script_app _ _ _ H). unfold delta.
  destruct (Z.eqb_spec x y) as [->|N]; [apply s_keep|apply (s_sub x y [] [] 0)]; constructor.
Qed.
Lemma script_snoc_del c a b x : script c a b -> script (c + 1) (a ++ [x]) b.
Proof. intros H. rewrite <- (app_nil_r b). exact (script_app _ _ _ H _ _ _ (s_del x [] [] 0 s_nil)). Qed.
Lemma script_snoc_ins c a b y : script c a b -> script (c + 1) a (b ++ [y]).
Proof. intros H. rewrite <- (app_nil_r a). exact (script_app _ _ _ H _ _ _ (s_ins y [] [] 0 s_nil)). Qed.

Lemma script_rev : forall c a b, script c a b -> script c (rev a) (rev b).
Proof.
  induction 1 as [|x a b c _ IH|x y a b c _ IH|x a b c _ IH|y a b c _ IH]; cbn [rev].
  - constructor.
  - rewrite <- (Z.add_0_r c). exact (script_app _ _ _ IH _ _ _ (s_keep x [] [] 0 s_nil)).
  - exact (script_app _ _ _ IH _ _ _ (s_sub x y [] [] 0 s_nil)).
  - apply script_snoc_del, IH.
  - apply script_snoc_ins, IH.
Qed.

(* decomposition at the END: the last operation of a script between a ++ [x] and b ++ [y] is the first one
   of the reversed script *)
Lemma script_last c a x b y : script c (a ++ [x]) (b ++ [y]) ->
  (exists c0, script c0 a b /\ c0 + delta x y <= c) \/
  (exists c0, script c0 a (b ++ [y]) /\ c0 + 1 <= c) \/
  (exists c0, script c0 (a ++ [x]) b /\ c0 + 1 <= c).
Proof.
  assert (R : forall c u v, script c (rev u) (rev v) -> script c u v).
  { intros c' u v S. apply script_rev in S. rewrite !rev_involutive in S. exact S. }
  intros H. apply script_rev in H. rewrite !rev_unit in H. unfold delta.
  inversion H as [|? ? ? ? S|? ? ? ? c0 S|? ? ? c0 S|? ? ? c0 S]; subst.
  - left. exists c. rewrite Z.eqb_refl. split; [apply R, S|lia].
  - left. exists c0. split; [apply R, S|destruct (x =? y); lia].
  - right. left. exists c0. split; [apply R; rewrite rev_unit; exact S|lia].
  - right. right. exists c0. split; [apply R; rewrite rev_unit; exact S|lia].
Qed.

(* D(T, P) = d: d is the least cost of a script from some SUFFIX of T to P *)
Definition isD (T P : list Z) (d : Z) : Prop :=
  (exists w v, T = w ++ v /\ script d v P) /\ (forall w v c, T = w ++ v -> script c v P -> d <= c).

Lemma isD_row0 T : isD T [] 0.
Proof.
  split.
  - exists T, []. split; [symmetry; apply app_nil_r|constructor].
  - intros w v c _ S. eapply script_nonneg; exact S.
Qed.
Lemma isD_col0 P : isD [] P (Z.of_nat (length P)).
Proof.
  split.
  - exists [], []. split; [reflexivity|apply script_ins_all].
  - intros w v c E S. symmetry in E. apply app_eq_nil in E. destruct E as [_ ->]. apply script_nil_l in S. lia.
Qed.

Lemma cell_isD T P c pi dg up lf :
  isD T P dg -> isD T (P ++ [pi]) up -> isD (T ++ [c]) P lf ->
  isD (T ++ [c]) (P ++ [pi]) (Z.min (Z.min (dg + (if pi =? c then 0 else 1)) (up + 1)) (lf + 1)).
Proof.
  intros [(w1 & v1 & E1 & S1) M1] [(w2 & v2 & E2 & S2) M2] [(w3 & v3 & E3 & S3) M3].
  assert (Hd : (if pi =? c then 0 else 1) = delta c pi) by (unfold delta; rewrite Z.eqb_sym; reflexivity).
  rewrite Hd. split.
  - destruct (Z.min_spec (Z.min (dg + delta c pi) (up + 1)) (lf + 1)) as [[_ ->]|[_ ->]].
    + destruct (Z.min_spec (dg + delta c pi) (up + 1)) as [[_ ->]|[_ ->]].
      * exists w1, (v1 ++ [c]). split; [rewrite E1, app_assoc; reflexivity|apply script_snoc_pair; exact S1].
      * exists w2, (v2 ++ [c]). split; [rewrite E2, app_assoc; reflexivity|apply script_snoc_del; exact S2].
    + exists w3, v3. split; [exact E3|apply script_snoc_ins; exact S3].
  - intros w v c0 E S.
    destruct v as [|x v' _] using rev_ind.
    + apply script_nil_l in S. rewrite app_length in S. cbn [length] in S.
      assert (lf <= Z.of_nat (length P)).
      { apply (M3 (T ++ [c]) []); [symmetry; apply app_nil_r|apply script_ins_all]. }
      lia.
    + rewrite app_assoc in E. apply app_inj_tail in E. destruct E as [ET <-].
      destruct (script_last _ _ _ _ _ S) as [(c1 & S' & L)|[(c1 & S' & L)|(c1 & S' & L)]].
      * pose proof (M1 w v' c1 ET S'). lia.
      * pose proof (M2 w v' c1 ET S'). lia.
      * assert (lf <= c1). { apply (M3 w (v' ++ [c])); [rewrite ET, app_assoc; reflexivity|exact S']. } lia.
Qed.

Lemma next_col_isD T c : forall p_rest P_done prev dg lf,
  length prev = length p_rest ->
  isD T P_done dg -> isD (T ++ [c]) P_done lf ->
  (forall i, (i < length p_rest)%nat -> isD T (P_done ++ firstn (S i) p_rest) (nth i prev 0)) ->
  length (next_col c p_rest prev dg lf) = length p_rest /\
  forall i, (i < length p_rest)%nat -> isD (T ++ [c]) (P_done ++ firstn (S i) p_rest) (nth i (next_col c p_rest prev dg lf) 0).
Proof.
  induction p_rest as [|pi p' IH]; intros P_done prev dg lf HL Hdg Hlf Hprev.
  - split; [reflexivity|]. intros i Hi. cbn [length] in Hi. lia.
  - destruct prev as [|up prev']; [discriminate|]. cbn [next_col].
    set (v := Z.min (Z.min (dg + (if pi =? c then 0 else 1)) (up + 1)) (lf + 1)).
    assert (Hup : isD T (P_done ++ [pi]) up) by (apply (Hprev 0%nat); cbn [length]; lia).
    assert (Hv : isD (T ++ [c]) (P_done ++ [pi]) v) by (apply cell_isD; assumption).
    destruct (IH (P_done ++ [pi]) prev' up v) as [IL IN].
    + cbn [length] in HL. lia.
    + exact Hup.
    + exact Hv.
    + intros i Hi. rewrite <- app_assoc. cbn [app]. apply (Hprev (S i)). cbn [length]. lia.
    + split; [cbn [length]; rewrite IL; reflexivity|].
      intros [|i] Hi.
      * cbn [nth firstn]. exact Hv.
      * cbn [nth]. specialize (IN i). rewrite <- app_assoc in IN. cbn [app] in IN. apply IN. cbn [length] in Hi. lia.
Qed.

Definition col_ok (T p col : list Z) : Prop :=
  length col = length p /\ forall i, (i < length p)%nat -> isD T (firstn (S i) p) (nth i col 0).

Lemma col_step T p col c : col_ok T p col -> col_ok (T ++ [c]) p (next_col c p col 0 0).
Proof.
  intros [HL HC]. destruct (next_col_isD T c p [] col 0 0 HL (isD_row0 T) (isD_row0 (T ++ [c]))) as [A B].
  - intros i Hi. cbn [app]. apply HC. exact Hi.
  - split; [exact A|]. intros i Hi. apply (B i Hi).
Qed.

Lemma col_init p : col_ok [] p (map (fun i => Z.of_nat i + 1) (seq 0 (length p))).
Proof.
  split; [rewrite map_length, seq_length; reflexivity|].
  intros i Hi.
  rewrite nth_map_seq by exact Hi. cbn [Nat.add].
  pose proof (isD_col0 (firstn (S i) p)) as H. rewrite firstn_length_le in H by lia.
  replace (Z.of_nat i + 1) with (Z.of_nat (S i)) by lia. exact H.
Qed.

Lemma col_last T p col : col_ok T p col -> isD T p (last col 0).
Proof.
  intros [HL HC]. destruct p as [|p0 p']; [destruct col; [apply isD_row0|discriminate]|].
  specialize (HC (length (p0 :: p') - 1)%nat ltac:(cbn [length]; lia)).
  rewrite firstn_all2 in HC by (cbn [length]; lia). rewrite last_nth, HL. exact HC.
Qed.

(* the running minimum over all columns = least cost over all SUBSTRINGS *)
Definition bestOK (T p : list Z) (best : Z) : Prop :=
  (exists pre u post, T = pre ++ u ++ post /\ script best u p) /\
  (forall pre u post c, T = pre ++ u ++ post -> script c u p -> best <= c).

Lemma best_init p : bestOK [] p (Z.of_nat (length p)).
Proof.
  split.
  - exists [], [], []. split; [reflexivity|apply script_ins_all].
  - intros pre u post c E S. symmetry in E. apply app_eq_nil in E. destruct E as [_ E]. apply app_eq_nil in E. destruct E as [-> _].
    apply script_nil_l in S. lia.
Qed.

Lemma best_step T p best d c : bestOK T p best -> isD (T ++ [c]) p d -> bestOK (T ++ [c]) p (Z.min best d).
Proof.
  intros [(pre & u & post & E & S) M] [(w & v & Ev & Sv) Mv]. split.
  - destruct (Z.min_spec best d) as [[_ ->]|[_ ->]].
    + exists pre, u, (post ++ [c]). split; [rewrite E, <- !app_assoc; reflexivity|exact S].
    + exists w, v, []. split; [rewrite app_nil_r; exact Ev|exact Sv].
  - intros pre' u' post' c0 E' S'.
    destruct post' as [|x q _] using rev_ind.
    + rewrite app_nil_r in E'. pose proof (Mv pre' u' c0 E' S'). lia.
    + rewrite !app_assoc in E'. apply app_inj_tail in E'. destruct E' as [ET _].
      rewrite <- app_assoc in ET. pose proof (M pre' u' q c0 ET S'). lia.
Qed.

Lemma sed_fold_inv p : forall rest T col best, col_ok T p col -> bestOK T p best ->
  bestOK (T ++ rest) p (snd (fold_left (fun st c => let '(col, best) := st in
                              let col' := next_col c p col 0 0 in (col', Z.min best (last col' 0))) rest (col, best))).
Proof.
  induction rest as [|c rest IH]; intros T col best HC HB.
  - rewrite app_nil_r. exact HB.
  - cbn [fold_left]. replace (T ++ c :: rest) with ((T ++ [c]) ++ rest) by (rewrite <- app_assoc; reflexivity).
    apply IH.
    + apply col_step. exact HC.
    + apply best_step; [exact HB|]. apply col_last. apply col_step. exact HC.
Qed.

Theorem sed_is_min_substring_edit_distance t p :
  (exists pre u post, t = pre ++ u ++ post /\ script (sed t p) u p) /\
  (forall pre u post c, t = pre ++ u ++ post -> script c u p -> sed t p <= c).
Proof.
  pose proof (sed_fold_inv p t [] _ _ (col_init p) (best_init p)) as H. cbn [app] in H.
  unfold sed. destruct (fold_left _ t _) as [col best]. exact H.
Qed.

(* the executable Levenshtein distance is the least script cost, so the theorem can also be read as
   sed t p = min { lev u p | u substring of t } *)
Fixpoint lev (a : list Z) : list Z -> Z :=
  match a with
  | [] => fun b => Z.of_nat (length b)
  | x :: a' => fix levb (b : list Z) : Z :=
      match b with
      | [] => Z.of_nat (length a') + 1
      | y :: b' => Z.min (Z.min (lev a' b' + delta x y) (lev a' b + 1)) (levb b' + 1)
      end
  end.

Lemma lev_nil_r a : lev a [] = Z.of_nat (length a).
Proof. destruct a; cbn [lev length]; lia. Qed.
Lemma lev_cons_cons x a y b :
  lev (x :: a) (y :: b) = Z.min (Z.min (lev a b + delta x y) (lev a (y :: b) + 1)) (lev (x :: a) b + 1).
Proof. reflexivity. Qed.

Lemma lev_script : forall a b, script (lev a b) a b.
Proof.
  induction a as [|x a IHa]; intros b.
  - apply script_ins_all.
  - induction b as [|y b IHb].
    + rewrite lev_nil_r. apply script_del_all.
    + rewrite lev_cons_cons.
      destruct (Z.min_spec (Z.min (lev a b + delta x y) (lev a (y :: b) + 1)) (lev (x :: a) b + 1)) as [[_ ->]|[_ ->]].
      * destruct (Z.min_spec (lev a b + delta x y) (lev a (y :: b) + 1)) as [[_ ->]|[_ ->]].
        -- unfold delta. destruct (Z.eqb_spec x y) as [->|N].
           ++ rewrite Z.add_0_r. apply s_keep. apply IHa.
           ++ apply s_sub. apply IHa.
        -- apply s_del. apply IHa.
      * apply s_ins. exact IHb.
Qed.

Lemma lev_min : forall c a b, script c a b -> lev a b <= c.
Proof.
  induction 1 as [|x a b c H IH|x y a b c H IH|x a b c H IH|y a b c H IH].
  - cbn. lia.
  - rewrite lev_cons_cons. unfold delta. rewrite Z.eqb_refl. lia.
  - rewrite lev_cons_cons. unfold delta. destruct (x =? y); lia.
  - destruct b as [|y b]; [rewrite lev_nil_r in *; cbn [length]; lia|]. rewrite lev_cons_cons. lia.
  - destruct a as [|x a]; [cbn [lev length] in *; lia|]. rewrite lev_cons_cons. lia.
Qed.

Theorem sed_is_min_substring_lev t p :
  (exists pre u post, t = pre ++ u ++ post /\ lev u p = sed t p) /\
  (forall pre u post, t = pre ++ u ++ post -> sed t p <= lev u p).
Proof.
  destruct (sed_is_min_substring_edit_distance t p) as [(pre & u & post & E & S) M]. split.
  - exists pre, u, post. split; [exact E|]. apply Z.le_antisymm; [apply lev_min; exact S|].
    apply (M pre u post); [exact E|apply lev_script].
  - intros pre' u' post' E'. apply (M pre' u' post'); [exact E'|apply lev_script].
Qed.

Lemma script_zero_eq : forall c a b, script c a b -> c = 0 -> a = b.
Proof.
  induction 1 as [|x a b c H IH|x y a b c H IH|x a b c H IH|y a b c H IH]; intros E; try (pose proof (script_nonneg _ _ _ H); lia).
  - reflexivity.
  - f_equal. apply IH. exact E.
Qed.
Lemma script_refl : forall a, script 0 a a.
Proof. induction a as [|x a IH]; [constructor|apply s_keep; exact IH]. Qed.

Theorem sed_zero_iff_contained t p : sed t p = 0 <-> exists pre post, t = pre ++ p ++ post.
Proof.
  destruct (sed_is_min_substring_edit_distance t p) as [(pre & u & post & E & S) M]. split.
  - intros Z0. rewrite Z0 in S. exists pre, post. rewrite <- (script_zero_eq _ _ _ S eq_refl). exact E.
  - intros (pre' & post' & E'). apply Z.le_antisymm; [apply (M pre' p post' 0 E' (script_refl p))|apply (script_nonneg _ _ _ S)].
Qed.
