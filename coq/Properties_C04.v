(* C04 - The result depends only on names and residues, not on how they are presented.
   Each statement is derived from the general results of FormatsProofs.v, FormatsProofs2.v, FormatsProofs3.v and DetectProofs.v.
   Proved: (a) gaps and line wrapping do not influence what the reader core extracts (any cutting
   of a row into lines, any punctuation inside it); (b) the run is a function of (name, residues)
   records and the detected kind; (c) the detected kind depends only on the letter counts.
   (d) the same alignment presented as a FASTA, a Clustal or an MSF file (as kalign writes them) is read
   as the same (name, residues) records - so, by (b), it is aligned identically.
   (e) the Clustal reader on ANY block layout (any number of blocks, any widths - also differing from row to row -,
   blanks and digits inside the residue part, consensus lines between blocks) rebuilds for every sequence the
   normalised concatenation of its pieces; two layouts of the same rows are read as the same records.
   The same holds for the body of an MSF file read into the records its header declared (C04_msf_body_any_layout).
   (f) an alignment split over two FASTA inputs gives the records of the first followed by those of the second.
   MSF headers of foreign writers, format sniffing of foreign files and the splitting over several inputs are decided by
   the correspondence of the reader model with msa_io.c on generated presentations and by comparing
   the implementation's results across presentations (DESIGN C04). *)
From KV Require Import Base Detect DetectProofs Formats FormatsProofs FormatsProofs2 FormatsProofs3 Api.
Local Open Scope Z_scope.

(* (a) whatever gap characters are interspersed and however the row is wrapped, the residues read
   are the letters, in order *)
Theorem C04_residues_are_the_letters : forall chunks name,
  rr_res (fold_left feed_line chunks (empty_rec name)) = filter isalpha (concat chunks) /\
  rr_name (fold_left feed_line chunks (empty_rec name)) = name.
Proof. intros chunks name. destruct (read_rec_spec name chunks) as (_ & _ & N & S). split; [exact S|exact N]. Qed.
Print Assumptions C04_residues_are_the_letters.

(* (b) kalign_run starts by de-aligning: the model of the run receives only (name, residues) *)
Theorem C04_run_depends_on_records_only : forall core bt ty gpo gpe tgpe (m1 m2 : in_msa),
  map (fun r => (rr_name r, rr_res r)) (i_recs m1) = map (fun r => (rr_name r, rr_res r)) (i_recs m2) ->
  kalign_run_model core bt ty gpo gpe tgpe (map (fun r => (rr_name r, rr_res r)) (i_recs m1)) =
  kalign_run_model core bt ty gpo gpe tgpe (map (fun r => (rr_name r, rr_res r)) (i_recs m2)).
Proof. intros. f_equal. assumption. Qed.
Print Assumptions C04_run_depends_on_records_only.

(* (c) the kind decision ignores every non-letter entry of the histogram *)
Theorem C04_kind_ignores_non_letters : forall f1 f2,
  length f1 = length f2 ->
  (forall i, isalpha (Z.of_nat i) = true -> nth i f1 0 = nth i f2 0) ->
  detect_sums f1 = detect_sums f2.
Proof. exact detect_sums_letters_only. Qed.
Print Assumptions C04_kind_ignores_non_letters.


(* (d) one alignment, three file formats: kalign_read_input returns the same names and residues from each *)
Theorem C04_same_records_from_every_format : forall version base date protein rows alnlen,
  clean_line version -> rows <> [] ->
  title_inert (msf_title base date protein alnlen rows) -> hint_clu (msf_title base date protein alnlen rows) = false ->
  Forall (fun nr => name_ok (fst nr) /\ good_row (snd nr) /\ length (snd nr) = alnlen /\ (length (fst nr) <= 200)%nat /\ ~ In 47 (fst nr)) rows ->
  (1 <= alnlen)%nat ->
  exists mf mc mm,
    read_one (write_fasta rows) = Some (Some mf) /\
    read_one (write_clu version alnlen rows) = Some (Some mc) /\
    read_one (write_msf base date protein alnlen rows) = Some (Some mm) /\
    records_of (m_recs mf) = residues_of rows /\ records_of (m_recs mc) = residues_of rows /\
    records_of (m_recs mm) = residues_of rows.
Proof.
  intros version base date protein rows alnlen Hv Hne Ht Hc Hall Hlen.
  destruct (read_one_written_fasta rows Hne) as (h & Hf); [eapply Forall_impl; [|exact Hall]; cbn beta; tauto|].
  destruct (read_one_written_clu version rows alnlen Hv) as (mc & Hc1 & _ & Hc3);
    [eapply Forall_impl; [|exact Hall]; cbn beta; tauto|exact Hlen|].
  destruct (read_one_written_msf base date protein rows alnlen Ht Hc Hall) as (mm & Hm1 & _ & Hm3).
  exists (mkM (map rec_of rows) h), mc, mm. repeat split; try assumption.
  apply rec_of_rows. eapply Forall_impl; [|exact Hall]; cbn beta; tauto.
Qed.
Print Assumptions C04_same_records_from_every_format.

(* (e) any Clustal layout.  A row is its name and its pieces (one per block); block j shows piece j of every row
   after the name and one blank; [seps j] are the lines after block j: empty lines and lines starting with white
   space (consensus), at least one empty; [lead] are such lines before the first block; [hdr] is any first line. *)
Theorem C04_clustal_any_layout : forall (rows : list lrow) k seps hdr lead,
  Forall (fun row => gname_ok (fst row)) rows -> Forall (fun row => length (snd row) = k) rows ->
  (forall j, seps_ok (seps j)) -> (1 <= k)%nat -> Forall sep_line lead ->
  exists recs h, read_clu (hdr :: lead ++ body_lines rows k seps) = Some (mkM recs h) /\
    Forall2 (fun r row => rr_name r = fst row /\ row_of r = norm (List.concat (snd row)) /\
                          rr_res r = filter isalpha (List.concat (snd row))) recs rows.
Proof.
  intros rows k seps hdr lead N P S K L. destruct (read_clu_layout rows k seps hdr lead N P S K L) as (h & E).
  exists (map layout_rec rows), h. split; [exact E|apply layout_recs].
Qed.
Print Assumptions C04_clustal_any_layout.

Theorem C04_clustal_layouts_agree : forall rows1 rows2 k1 k2 seps1 seps2 hdr1 hdr2 lead1 lead2,
  Forall (fun row => gname_ok (fst row)) rows1 -> Forall (fun row => length (snd row) = k1) rows1 -> (forall j, seps_ok (seps1 j)) ->
  Forall (fun row => gname_ok (fst row)) rows2 -> Forall (fun row => length (snd row) = k2) rows2 -> (forall j, seps_ok (seps2 j)) ->
  (1 <= k1)%nat -> (1 <= k2)%nat -> Forall sep_line lead1 -> Forall sep_line lead2 ->
  map (fun row => (fst row, filter isalpha (List.concat (snd row)))) rows1 =
  map (fun row => (fst row, filter isalpha (List.concat (snd row)))) rows2 ->
  exists m1 m2, read_clu (hdr1 :: lead1 ++ body_lines rows1 k1 seps1) = Some m1 /\
                read_clu (hdr2 :: lead2 ++ body_lines rows2 k2 seps2) = Some m2 /\
                records_of (m_recs m1) = records_of (m_recs m2).
Proof.
  intros rows1 rows2 k1 k2 seps1 seps2 hdr1 hdr2 lead1 lead2 N1 P1 S1 N2 P2 S2 K1 K2 L1 L2 E.
  destruct (read_clu_layout rows1 k1 seps1 hdr1 lead1 N1 P1 S1 K1 L1) as (h1 & R1).
  destruct (read_clu_layout rows2 k2 seps2 hdr2 lead2 N2 P2 S2 K2 L2) as (h2 & R2).
  eexists _, _. split; [exact R1|split; [exact R2|]]. cbn [m_recs]. rewrite !records_of_layout. exact E.
Qed.
Print Assumptions C04_clustal_layouts_agree.

(* the MSF body in any layout, read into the records the header declared (read_msf's second phase) *)
Theorem C04_msf_body_any_layout : forall (rows : list lrow) k seps lead h0,
  Forall (fun row => gname_ok (fst row)) rows -> Forall (fun row => length (snd row) = k) rows ->
  (forall j, seps_ok (seps j)) -> Forall sep_line lead ->
  exists recs h, fold_left msf_step (lead ++ body_lines rows k seps)
                           (Some (map (fun row => empty_rec (fst row)) rows, 0%nat, h0)) = Some (recs, 0%nat, h) /\
    Forall2 (fun r row => rr_name r = fst row /\ row_of r = norm (List.concat (snd row)) /\
                          rr_res r = filter isalpha (List.concat (snd row))) recs rows.
Proof.
  intros rows k seps lead h0 N P S L. destruct (msf_body_layout rows k seps lead h0 N P S L) as (h & E).
  exists (map layout_rec rows), h. split; [exact E|apply layout_recs].
Qed.
Print Assumptions C04_msf_body_any_layout.

(* (f) an alignment split over two FASTA inputs is read as the records of the first followed by those of the second -
   the same records as from the single file - provided the two files are detected as the same (defined) kind; whatever
   histograms h1, h2 the two reads produce *)
Theorem C04_split_over_two_inputs : forall rows1 rows2,
  (2 <= length rows1)%nat -> rows2 <> [] ->
  Forall (fun nr => name_ok (fst nr) /\ good_row (snd nr)) rows1 -> Forall (fun nr => name_ok (fst nr) /\ good_row (snd nr)) rows2 ->
  forall h1 h2, read_one (write_fasta rows1) = Some (Some (mkM (map rec_of rows1) h1)) ->
                read_one (write_fasta rows2) = Some (Some (mkM (map rec_of rows2) h2)) ->
  biotype_of ALN_BIOTYPE_UNDEF h1 <> ALN_BIOTYPE_UNDEF ->
  biotype_of ALN_BIOTYPE_UNDEF h2 = biotype_of ALN_BIOTYPE_UNDEF h1 ->
  exists m, read_inputs [write_fasta rows1; write_fasta rows2] = ROk m /\
            records_of (i_recs m) = residues_of (rows1 ++ rows2).
Proof.
  intros rows1 rows2 L1 N2 H1 H2 h1 h2 R1 R2 B1 B2.
  destruct (read_two_inputs _ _ _ _ R1 R2) as (m & E & I); [cbn [m_recs]; rewrite map_length; exact L1|exact B1|exact B2|].
  exists m. split; [exact E|]. rewrite I. cbn [m_recs]. rewrite <- map_app. apply rec_of_rows.
  apply Forall_app. split; [eapply Forall_impl; [|exact H1]|eapply Forall_impl; [|exact H2]]; cbn beta; tauto.
Qed.
Print Assumptions C04_split_over_two_inputs.

(* non-vacuity: two layouts of the same two rows - blocks of 3+2 columns with a consensus line, and one block with
   blanks and digits inside *)
Example C04_layouts_instance :
  let r1 : list lrow := [([115;49], [[65;67;45]; [71;84]]); ([115;50], [[97;45;45]; [71;116]])] in
  let r2 : list lrow := [([115;49], [[65;67;32;45;71;84;32;53]]); ([115;50], [[97;45;45;32;71;116;32;53]])] in
  let sp := fun _ : nat => [[32;42;42]; []] in
  (exists m1 m2, read_clu ([67] :: [[]] ++ body_lines r1 2 sp) = Some m1 /\ read_clu ([67] :: [] ++ body_lines r2 1 sp) = Some m2 /\
                 records_of (m_recs m1) = records_of (m_recs m2) /\ rows_of (m_recs m1) = rows_of (m_recs m2)).
Proof. eexists. eexists. split; [vm_compute; reflexivity|split; [vm_compute; reflexivity|split; vm_compute; reflexivity]]. Qed.
