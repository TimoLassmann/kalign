(* C08, exact arithmetic: everything that is COMPUTED from the tables of the built code (Generated/Tables.v) - the finite
   checks of the five built-in schemes and the corollaries that rest on them.  Kept apart so that a change of a table
   breaks these statements only. *)
From Coq Require Import ZArith List Bool Lia.
From Flocq Require Import IEEE754.Binary IEEE754.Bits.
From KV Require Import FP Params Pipeline DupProofs ExactDiagInst.
Import ListNotations.
Local Open Scope Z_scope.

Lemma default_schemes_ok : forallb default_scheme_ok [PS_DNA; PS_DNA_INTERNAL; PS_RNA; PS_PROTEIN; PS_GON] = true.
Proof. vm_compute. reflexivity. Qed.

Lemma scheme_of_ok s m gpo gpe tgpe : scheme_of s = Some (m, gpo, gpe, tgpe) ->
  scheme_ok unitX m gpo gpe tgpe (gam_of (dim_of s) m gpo gpe tgpe) (dim_of s) (mx_of m) = true.
Proof.
  intros Hs. pose proof default_schemes_ok as H. rewrite forallb_forall in H.
  specialize (H s ltac:(destruct s; cbn; tauto)). unfold default_scheme_ok in H. rewrite Hs in H. exact H.
Qed.

Lemma unitX_pos : 0 <= unitX. Proof. discriminate. Qed.

(* the decoder agrees with Flocq's reading of the same bit patterns: for every 32-bit pattern it accepts, the integer is
   2000 * 2^40 times the real value (-1)^s * m * 2^e of the binary32 number (0 for +-0); so for the entries of the
   built-in schemes only "is a 32-bit pattern and decodes" is left to evaluation *)
Definition decodes_like_flocq (b : N) : bool :=
  match f32_of_bits b, exact_of_bits b with
  | B754_zero _ _ _, Some z => z =? 0
  | B754_finite _ _ s m e _, Some z => (0 <=? e + KX) && (z =? (if s then -1 else 1) * (2000 * Zpos m * 2 ^ (e + KX)))
  | _, _ => false
  end.
Definition params_decode_like_flocq (p : params) : bool :=
  forallb (forallb decodes_like_flocq) (p_subm p) && decodes_like_flocq (p_gpo p) && decodes_like_flocq (p_gpe p) && decodes_like_flocq (p_tgpe p).

Definition accepted (b : N) : bool := (b <? 2 ^ 32)%N && match exact_of_bits b with Some _ => true | None => false end.

(* the three fields of a 32-bit pattern: exact_of_bits reads them by testbit, shift and mask, Flocq's split_bits by
   comparison, division and remainder *)
Lemma fields_32 z : 0 <= z < 2 ^ 32 ->
  Z.testbit z 31 = (2 ^ 31 <=? z) /\ Z.land (Z.shiftr z 23) 255 = (z / 2 ^ 23) mod 2 ^ 8 /\ Z.land z 8388607 = z mod 2 ^ 23.
Proof.
  intros Hz. split; [|split].
  - destruct (Z.leb_spec (2 ^ 31) z).
    + rewrite (Z.testbit_true z 31) by lia. Z.div_mod_to_equations. lia.
    + apply Z.bits_above_log2; [lia|]. destruct (Z.eq_dec z 0) as [->|]; [reflexivity|]. apply Z.log2_lt_pow2; lia.
  - rewrite Z.shiftr_div_pow2 by lia. apply (Z.land_ones _ 8). lia.
  - apply (Z.land_ones z 23). lia.
Qed.
Lemma split_bits_32 z : split_bits 23 8 z = (2 ^ 31 <=? z, z mod 2 ^ 23, (z / 2 ^ 23) mod 2 ^ 8).
Proof. reflexivity. Qed.

Lemma exact_of_bits_correct b : accepted b = true -> decodes_like_flocq b = true.
Proof.
  unfold accepted. intros H. apply andb_true_iff in H as [Hb Hn]. apply N.ltb_lt in Hb.
  pose (dl := fun (x : full_float) (o : option Z) => match x, o with
     | F754_zero _, Some z => z =? 0
     | F754_finite s m e, Some z => (0 <=? e + KX) && (z =? (if s then -1 else 1) * (2000 * Zpos m * 2 ^ (e + KX)))
     | _, _ => false end).
  replace (decodes_like_flocq b) with (dl (B2FF _ _ (f32_of_bits b)) (exact_of_bits b)) by (unfold decodes_like_flocq; destruct (f32_of_bits b); reflexivity).
  unfold f32_of_bits, b32_of_bits, binary_float_of_bits. rewrite B2FF_FF2B.
  unfold binary_float_of_bits_aux, exact_of_bits in *. rewrite split_bits_32.
  set (z := Z.of_N b) in *. assert (Hz : 0 <= z < 2 ^ 32) by (unfold z; change (2 ^ 32) with (Z.of_N (2 ^ 32)); lia).
  destruct (fields_32 z Hz) as (E1 & E2 & E3). rewrite E1, E2, E3 in *.
  change (2 ^ 8 - 1) with 255. change (SpecFloat.emin (23 + 1) (2 ^ (8 - 1))) with (-149).
  set (ex := (z / 2 ^ 23) mod 2 ^ 8) in *. set (man := z mod 2 ^ 23) in *.
  assert (Hm : 0 <= man < 2 ^ 23) by (apply Z.mod_pos_bound; lia).
  clearbody ex man. unfold Zeq_bool. rewrite <- !Z.eqb_compare.
  destruct (ex =? 255); [discriminate|]. destruct (ex =? 0).
  - destruct (Z.eqb_spec man 0) as [Q|Q]; [rewrite Q; reflexivity|discriminate].
  - destruct (Z.ltb_spec (ex - 150 + KX) 0); [discriminate|].
    destruct (man + 2 ^ 23) as [|px|px] eqn:Ep; try lia. cbn [dl]. replace (ex + -149 - 1 + KX) with (ex - 150 + KX) by lia.
    apply andb_true_iff. split; [lia|]. apply Z.eqb_eq. replace (8388608 + man) with (Z.pos px) by (change 8388608 with (2 ^ 23); lia).
    destruct (2 ^ 31 <=? z); lia.
Qed.

Lemma forallb_impl {X} (P Q : X -> bool) l : (forall x, P x = true -> Q x = true) -> forallb P l = true -> forallb Q l = true.
Proof. intros H. rewrite !forallb_forall. auto. Qed.

Definition params_accepted (p : params) : bool :=
  forallb (forallb accepted) (p_subm p) && accepted (p_gpo p) && accepted (p_gpe p) && accepted (p_tgpe p).
Lemma builtin_entries_accepted :
  forallb (fun s => match pset_defaults s with Some p => params_accepted p | None => false end)
          [PS_DNA; PS_DNA_INTERNAL; PS_RNA; PS_PROTEIN; PS_GON] = true.
Proof. vm_compute. reflexivity. Qed.

Lemma dim_of_le23 s : (dim_of s <= 23)%nat.
Proof. destruct s; vm_compute; lia. Qed.

(* the hypothesis "the run returns" is met: four copies of a nucleotide string with two ambiguity codes, merged by the
   sequence-sequence kernel twice and then by the profile-profile kernel; and merged by the sequence-sequence and then the
   sequence-profile kernel (both orders of the operands) - under the built-in 'dna' scheme, evaluated in exact arithmetic *)
Lemma exact_runs_return :
  match scheme_of PS_DNA with
  | Some (m, gpo, gpe, tgpe) =>
    let x := [0; 1; 4; 2; 3; 3; 4]%Z in
    let ops := fun r => option_map (map (fun e => (snd (fst (fst e)), snd (fst e)))) r in
    ops (progressive (AX unitX) (PX unitX m gpo gpe tgpe) [x; x; x; x] [(0, 1, 4); (2, 3, 5); (4, 5, 6)]%nat)
      = Some [(diag 7, repeat 0%Z 7); (diag 7, repeat 0%Z 7); (diag 7, repeat 0%Z 7)] /\
    ops (progressive (AX unitX) (PX unitX m gpo gpe tgpe) [x; x; x; x] [(0, 1, 4); (4, 2, 5); (3, 5, 6)]%nat)
      = Some [(diag 7, repeat 0%Z 7); (diag 7, repeat 0%Z 7); (diag 7, repeat 0%Z 7)]
  | None => False
  end.
Proof. vm_compute. split; reflexivity. Qed.

Example progressive_copies_instance :
  match scheme_of PS_DNA with
  | Some (m, gpo, gpe, tgpe) =>
    let x := [0; 1; 4; 2; 3; 3; 4]%Z in
    option_map (map (fun e => (snd (fst (fst e)), snd (fst e)))) (progressive (AX unitX) (PX unitX m gpo gpe tgpe) [x; x; x; x] [(0, 1, 4); (2, 3, 5); (4, 5, 6)]%nat)
    = Some [(diag 7, repeat 0%Z 7); (diag 7, repeat 0%Z 7); (diag 7, repeat 0%Z 7)]
  | None => False
  end.
Proof. pose proof exact_runs_return as H. destruct (scheme_of PS_DNA) as [[[[m gpo] gpe] tgpe]|]; [exact (proj1 H)|exact H]. Qed.
