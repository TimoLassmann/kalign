(* C14 - Letter case and RNA/DNA spelling do not influence the alignment.
   The lemmas behind the statements are in ApiProofs.v; the two detection statements rest on those of C13. *)
From KV Require Import Base Detect DetectProofs Api ApiProofs Properties_C13.
Local Open Scope Z_scope.

(* In every alphabet kalign_run converts to, a lower-case letter has the code of its upper-case
   letter (tables regenerated from the built library on every run). *)
Theorem C14_alphabet_case :
  forallb (fun bt => forallb (fun p => codes_agree bt (fst p) (snd p)) upper_lower_pairs)
          [ALN_BIOTYPE_DNA; ALN_BIOTYPE_PROTEIN] = true.
Proof. exact alphabet_case_b. Qed.
Print Assumptions C14_alphabet_case.

(* T, t, U, u share one code in the nucleotide alphabet. *)
Theorem C14_alphabet_TU :
  codes_agree ALN_BIOTYPE_DNA 84 85 = true /\ codes_agree ALN_BIOTYPE_DNA 116 117 = true /\
  codes_agree ALN_BIOTYPE_DNA 84 117 = true /\ codes_agree ALN_BIOTYPE_DNA 116 85 = true.
Proof. exact alphabet_TU_b. Qed.
Print Assumptions C14_alphabet_TU.

Theorem C14_codes_agree_is_equivalence : forall bt ta tamb aa aamb c c',
  alphabets bt = Some ((ta, tamb), (aa, aamb)) -> codes_agree bt c c' = true ->
  equiv_byte ta aa tamb aamb c c'.
Proof. exact codes_agree_equiv. Qed.
Print Assumptions C14_codes_agree_is_equivalence.

(* Main statement: for any core, two inputs whose records have the same names and residues that
   are equivalent byte by byte (same code in both alphabets - in particular any change of case and,
   for nucleotides, any T/U substitution) and that are detected as the same kind of sequence give
   results with the same names in the same order and the same gap pattern in every row; one is
   rejected iff the other is. *)
Theorem C14_respell_invariance : forall core bt ta aa tamb aamb,
  alphabets bt = Some ((ta, tamb), (aa, aamb)) ->
  forall ty gpo gpe tgpe recs recs',
  Forall2 (respelled ta aa tamb aamb) recs recs' ->
  match kalign_run_model core bt ty gpo gpe tgpe recs, kalign_run_model core bt ty gpo gpe tgpe recs' with
  | Some o, Some o' => Forall2 out_rel o o'
  | None, None => True
  | _, _ => False
  end.
Proof. exact respell_invariance. Qed.
Print Assumptions C14_respell_invariance.

(* "detected as the same kind": for the two families of the property the binary64 decision itself is pinned down
   (C13, forward error analysis), so every respelling is detected like the original.  A respelling of a nucleotide
   set (case, T/U) is again spelled with a c g t u n only; a change of case of a protein set keeps the numbers of
   protein-only, nucleotide and U letters. *)
Theorem C14_nucleotide_respellings_detected_alike : forall f1 f2,
  length f1 = 128%nat -> length f2 = 128%nat ->
  Forall (fun c => 0 <= c < 2 ^ 31) f1 -> Forall (fun c => 0 <= c < 2 ^ 31) f2 ->
  hist_only nuc_or_u 0 f1 -> hist_only nuc_or_u 0 f2 -> 0 < total_letters 0 f1 -> 0 < total_letters 0 f2 ->
  detect_alphabet f1 = Some ALN_BIOTYPE_DNA /\ detect_alphabet f2 = Some ALN_BIOTYPE_DNA.
Proof. intros f1 f2 L1 L2 C1 C2 H1 H2 T1 T2. split; apply C13_nucleotide_detected; assumption. Qed.
Print Assumptions C14_nucleotide_respellings_detected_alike.

Theorem C14_protein_respellings_detected_alike : forall f1 f2,
  length f1 = 128%nat -> length f2 = 128%nat ->
  Forall (fun c => 0 <= c < 2 ^ 31) f1 -> Forall (fun c => 0 <= c < 2 ^ 31) f2 ->
  0 < total_letters 0 f1 -> total_letters 0 f1 <= 4 * class_count only_po 0 f1 ->
  class_count is_nuc_letter 0 f1 + class_count only_u 0 f1 + class_count only_po 0 f1 <= total_letters 0 f1 ->
  class_count only_u 0 f1 = 0 ->
  total_letters 0 f2 = total_letters 0 f1 -> class_count only_po 0 f2 = class_count only_po 0 f1 ->
  class_count is_nuc_letter 0 f2 = class_count is_nuc_letter 0 f1 -> class_count only_u 0 f2 = class_count only_u 0 f1 ->
  detect_alphabet f1 = Some ALN_BIOTYPE_PROTEIN /\ detect_alphabet f2 = Some ALN_BIOTYPE_PROTEIN.
Proof.
  intros f1 f2 L1 L2 C1 C2 T Q S U E1 E2 E3 E4. split; apply C13_protein_detected; try assumption; rewrite ?E1, ?E2, ?E3, ?E4; assumption.
Qed.
Print Assumptions C14_protein_respellings_detected_alike.

(* Non-vacuity: "acgu" is a respelling of "ACGT" *)
Example C14_nonvacuous :
  forallb (fun p => codes_agree ALN_BIOTYPE_DNA (fst p) (snd p)) [(65,97);(67,99);(71,103);(84,117)] = true.
Proof. vm_compute. reflexivity. Qed.
