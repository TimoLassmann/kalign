(* C01 with the task list BUILT from the schedule of a guide tree and one raw path per
   merge (what the DP kernels hand to add_gap_info).  For EVERY guide tree and EVERY family of raw paths that are
   well-formed for the widths of the two groups at the moment of the merge (kpath_wfb - the monitored premise, and the
   only one left), the run is valid and the alignment has the integrity properties of C01. *)
From Coq Require Import ZArith List Bool Lia.
From KV Require Import Weave WeaveProofs WeaveCheck PathProofs AssemblyProofs Pipeline CladeTasks TreeSchedule TreeAssembly.
Import ListNotations.
Local Open Scope nat_scope.

Section TP.
Variable seqs : list (list Z).

Fixpoint build_tasks (st : wstate) (sched : list (nat * nat * nat)) (paths : list (list Z)) : option (list task) :=
  match sched, paths with
  | [], _ => Some []
  | (a, b, c) :: rest, p :: ps =>
    let lb := Z.of_nat (width_of seqs st b) in
    if kpath_wfb lb p && Nat.eqb (length p) (width_of seqs st a) then
      match add_gap_info lb p with
      | Some ops =>
        match build_tasks (merge_step st a b c ops) rest ps with
        | Some ts => Some ((a, b, c, ops) :: ts)
        | None => None
        end
      | None => None
      end
    else None
  | _ :: _, [] => None
  end.

Lemma width_ok_width_of st x w : width_ok seqs st x w -> members st x <> [] -> width_of seqs st x = w.
Proof.
  intros W Hne. unfold width_of. destruct (members st x) as [|i l] eqn:E; [contradiction|]. apply W. rewrite E. left. reflexivity.
Qed.

Lemma build_fits : forall sched paths st act tasks,
  Inv2 seqs st act -> (forall x, In x act -> members st x <> []) ->
  sched_ok act sched -> Forall (fun q => tc q < length (w_sip st)) sched ->
  build_tasks st sched paths = Some tasks ->
  fits_runb seqs st tasks = true /\ map strip tasks = sched.
Proof.
  induction sched as [|[[a b] c] rest IH]; intros paths st act tasks HI Hne Hs Hc Hb.
  - cbn [build_tasks] in Hb. inversion Hb; subst. split; reflexivity.
  - destruct paths as [|p ps]; [discriminate Hb|]. cbn [build_tasks] in Hb. cbv zeta in Hb.
    destruct (kpath_wfb (Z.of_nat (width_of seqs st b)) p) eqn:Ewf; [|discriminate Hb]. cbn [andb] in Hb.
    destruct (Nat.eqb (length p) (width_of seqs st a)) eqn:Elen; [|discriminate Hb]. apply Nat.eqb_eq in Elen.
    destruct (expand_path_counts _ _ Ewf) as (ops & Eops & Hfit). rewrite Eops in Hb. rewrite Nat2Z.id, Elen in Hfit.
    destruct (build_tasks (merge_step st a b c ops) rest ps) as [ts|] eqn:Ets; [|discriminate Hb]. inversion Hb; subst tasks. clear Hb.
    cbn [sched_ok] in Hs. destruct Hs as (Ha & Hbb & Hab & Hnc & Hrest).
    inversion Hc as [|? ? Hc1 Hc2]; subst. unfold tc in Hc1. cbn [snd] in Hc1.
    destruct (inv2_width seqs st act HI a Ha) as (wa & Wa & _). destruct (inv2_width seqs st act HI b Hbb) as (wb & Wb & _).
    pose proof (Hne a Ha) as Na. pose proof (Hne b Hbb) as Nb.
    rewrite <- (width_ok_width_of st a wa Wa Na) in Wa. rewrite <- (width_ok_width_of st b wb Wb Nb) in Wb.
    assert (step_ok seqs st act a b c ops (width_of seqs st a) (width_of seqs st b)) as Hstep by (constructor; assumption).
    destruct (IH ps (merge_step st a b c ops) (act_after act a b c) ts) as (F & M); try assumption.
    + exact (merge_step_inv2 seqs _ _ _ _ _ _ _ _ HI Hstep Na Nb).
    + intros x Hx i0. apply in_act_after in Hx as [->|(Hx & Hxa & Hxb)].
      * destruct (members st a) as [|i l] eqn:E; [contradiction|].
        assert (In i (members (merge_step st a b c ops) c)) as Q by (apply members_step_c_in; [exact Hc1|left; rewrite E; left; reflexivity]).
        rewrite i0 in Q. exact Q.
      * rewrite members_step_other in i0 by (intros ->; contradiction). exact (Hne x Hx i0).
    + eapply Forall_impl; [|exact Hc2]. cbn beta. intros q Hq. rewrite merge_step_sip_length. exact Hq.
    + split; [|cbn [map strip fst]; rewrite M; reflexivity].
      apply fits_runb_cons. auto 6.
Qed.

Lemma build_valid : forall sched paths st act tasks,
  Inv2 seqs st act -> (forall x, In x act -> members st x <> []) ->
  sched_ok act sched -> Forall (fun q => tc q < length (w_sip st)) sched ->
  build_tasks st sched paths = Some tasks ->
  valid_runb seqs st act tasks = true /\ map strip tasks = sched.
Proof.
  intros sched paths st act tasks HI Hne Hs Hc Hb.
  destruct (build_fits sched paths st act tasks HI Hne Hs Hc Hb) as (F & M).
  split; [apply valid_of_sched; rewrite ?M; assumption|exact M].
Qed.
End TP.

Lemma build_tree_fits seqs : Forall (Forall (fun c => c <> dash)) seqs ->
  forall t, NoDup (leaves t) -> (forall i, In i (leaves t) <-> i < length seqs) ->
  forall paths tasks,
  build_tasks seqs (st0 seqs) (sort_tasks (tasks_of (fst (label t (length seqs))))) paths = Some tasks ->
  fits_runb seqs (st0 seqs) tasks = true /\ map strip tasks = sort_tasks (tasks_of (fst (label t (length seqs)))).
Proof.
  intros Hd t Hnd Hlv paths tasks Hb. destruct (tree_sched_facts t (length seqs) Hnd Hlv) as (S1 & S2 & _).
  apply (build_fits seqs _ paths _ (seq 0 (length seqs))); [apply st0_inv2; exact Hd| |exact S1|rewrite st0_sip_length; exact S2|exact Hb].
  intros x Hx. apply in_seq in Hx. rewrite st0_members by lia. discriminate.
Qed.

Theorem integrity_every_tree_every_wf_path : forall seqs,
  Forall (Forall (fun c => c <> dash)) seqs ->
  forall t, NoDup (leaves t) -> (forall i, In i (leaves t) <-> i < length seqs) ->
  forall paths tasks,
  build_tasks seqs (st0 seqs) (sort_tasks (tasks_of (fst (label t (length seqs))))) paths = Some tasks ->
  let final := run_from (st0 seqs) tasks in
  (forall i, i < length seqs -> degap (row_of seqs final i) = nth i seqs []) /\
  exists w, (forall i, i < length seqs -> length (row_of seqs final i) = w) /\
            (forall j, j < w -> exists i, i < length seqs /\ nth j (row_of seqs final i) dash <> dash).
Proof.
  intros seqs Hd t Hnd Hlv paths tasks Hb.
  destruct (build_tree_fits seqs Hd t Hnd Hlv paths tasks Hb) as (F & M).
  exact (assembly_integrity_any_tree seqs Hd t Hnd Hlv tasks M F).
Qed.

Lemma valid_runb_app seqs : forall t1 t2 st act, valid_runb seqs st act (t1 ++ t2) = true ->
  valid_runb seqs st act t1 = true /\ valid_runb seqs (run_from st t1) (act_final act t1) t2 = true.
Proof.
  induction t1 as [|[[[a b] c] ops] t1 IH]; intros t2 st act H; [split; [reflexivity|exact H]|].
  cbn [app valid_runb] in H. apply andb_true_iff in H as [H1 H2].
  destruct (IH t2 _ _ H2) as (A & B). split.
  - cbn [valid_runb]. rewrite H1, A. reflexivity.
  - cbn [run_from fold_left act_final]. exact B.
Qed.

(* C10 for every guide tree and every family of well-formed raw paths *)
Theorem blocks_preserved_every_tree_every_wf_path : forall seqs,
  Forall (Forall (fun c => c <> dash)) seqs ->
  forall t, NoDup (leaves t) -> (forall i, In i (leaves t) <-> i < length seqs) ->
  forall paths tasks,
  build_tasks seqs (st0 seqs) (sort_tasks (tasks_of (fst (label t (length seqs))))) paths = Some tasks ->
  forall t1 t2, tasks = t1 ++ t2 ->
  let mid := run_from (st0 seqs) t1 in
  forall x S, In x (act_final (seq 0 (length seqs)) t1) -> incl S (members mid x) ->
  strip_allgap (map (row_of seqs (run_from (st0 seqs) tasks)) S) = strip_allgap (map (row_of seqs mid) S).
Proof.
  intros seqs Hd t Hnd Hlv paths tasks Hb t1 t2 E mid x S Hx HS.
  destruct (build_tree_fits seqs Hd t Hnd Hlv paths tasks Hb) as (F & M).
  destruct (tree_sched_facts t (length seqs) Hnd Hlv) as (S1 & S2 & _). rewrite <- M in S1, S2.
  assert (valid_runb seqs (st0 seqs) (seq 0 (length seqs)) tasks = true) as Hv
    by (apply valid_of_sched; [exact S1|rewrite st0_sip_length; exact S2|exact F]).
  subst tasks. destruct (valid_runb_app seqs t1 t2 _ _ Hv) as (V1 & V2).
  pose proof (valid_runb_inv2 seqs t1 (st0 seqs) (seq 0 (length seqs)) (st0_inv2 seqs Hd) V1) as HI. fold mid in HI, V2.
  destruct (inv2_width seqs _ _ HI x Hx) as (w & Wx & _).
  unfold run_from at 1. rewrite fold_left_app. fold (run_from (st0 seqs) t1). fold mid. fold (run_from mid t2).
  apply (run_preserves_blocks seqs t2 mid (act_final (seq 0 (length seqs)) t1) (inv2_inv seqs _ _ HI) (valid_runb_ok seqs t2 _ _ V2) S x w Hx HS Wx).
Qed.
