(* C11: the bit-parallel routines compute the column DP (Myers 1999 / Hyyro 2001), proved bit by bit:
   the cell function on delta encodings; a row-serial column step and its relation to the column
   recurrence; the word-level formulas of bpm() and of the block step of bpm_block() equal to the row-serial step -
   the adder's carry chain IS the chain of "horizontal delta = -1" -; the invariant over the text, for the
   one-word routines at any word width and for the chain of blocks; the wildcard and text padding. *)
From Coq Require Import ZArith List Bool Lia.
From KV Require Import ListFacts Bpm BpmProofs BpmBits.
Import ListNotations.
Local Open Scope Z_scope.

Definition dv (p n : bool) : Z := b2z p - b2z n.

(* e: p_i = t_j; (vp, vn): old vertical delta D[i][j-1]-D[i-1][j-1]; (hp, hn): horizontal delta of the row above
   D[i-1][j]-D[i-1][j-1].  Returns ((new vertical delta), (horizontal delta of this row)). *)
Definition cellf (e vp vn hp hn : bool) : (bool * bool) * (bool * bool) :=
  let d0 := e || vn || hn in
  ((hn || negb (d0 || hp), hp && d0), (vn || negb (d0 || vp), vp && d0)).

Lemma cell_spec : forall (e vp vn hp hn : bool) (a : Z), vp && vn = false -> hp && hn = false ->
  let up := a + dv vp vn in
  let l := a + dv hp hn in
  let d := Z.min (Z.min (a + (if e then 0 else 1)) (up + 1)) (l + 1) in
  let r := cellf e vp vn hp hn in
  fst (fst r) && snd (fst r) = false /\ fst (snd r) && snd (snd r) = false /\
  dv (fst (fst r)) (snd (fst r)) = d - l /\ dv (fst (snd r)) (snd (snd r)) = d - up.
Proof.
  intros e vp vn hp hn a V H.
  destruct e, vp, vn, hp, hn; try discriminate; cbn; unfold dv, b2z; repeat split; lia.
Qed.

Lemma sign_flags_excl h : (0 <? h) && (h <? 0) = false.
Proof. destruct (Z.ltb_spec 0 h), (Z.ltb_spec h 0); try reflexivity; lia. Qed.
Lemma dv_sign_flags h : -1 <= h <= 1 -> dv (0 <? h) (h <? 0) = h.
Proof. intros H. unfold dv, b2z. destruct (Z.ltb_spec 0 h), (Z.ltb_spec h 0); lia. Qed.

Fixpoint serial (eqs vps vns : list bool) (hp hn : bool) : (list bool * list bool) * (list bool * list bool) :=
  match eqs, vps, vns with
  | e :: eqs', vp :: vps', vn :: vns' =>
    let r := cellf e vp vn hp hn in
    let rest := serial eqs' vps' vns' (fst (snd r)) (snd (snd r)) in
    ((fst (fst r) :: fst (fst rest), snd (fst r) :: snd (fst rest)),
     (fst (snd r) :: fst (snd rest), snd (snd r) :: snd (snd rest)))
  | _, _, _ => (([], []), ([], []))
  end.

Fixpoint vals (a : Z) (vps vns : list bool) : list Z :=
  match vps, vns with
  | vp :: vps', vn :: vns' => (a + dv vp vn) :: vals (a + dv vp vn) vps' vns'
  | _, _ => []
  end.
Fixpoint valid (ps ns : list bool) : Prop :=
  match ps, ns with
  | p :: ps', n :: ns' => p && n = false /\ valid ps' ns'
  | _, _ => True
  end.

(* the column recurrence with an arbitrary match flag per row *)
Fixpoint next_col_g (eqs : list bool) (prev : list Z) (diag left : Z) : list Z :=
  match eqs, prev with
  | e :: eqs', up :: prev' =>
    let v := Z.min (Z.min (diag + (if e then 0 else 1)) (up + 1)) (left + 1) in
    v :: next_col_g eqs' prev' up v
  | _, _ => []
  end.

Lemma next_col_is_g : forall c p prev diag left, next_col c p prev diag left = next_col_g (map (fun pi => pi =? c) p) prev diag left.
Proof.
  intros c p. induction p as [|pi p IH]; intros prev diag left; [reflexivity|].
  destruct prev as [|up prev]; [reflexivity|]. cbn [next_col map next_col_g]. f_equal. apply IH.
Qed.

Lemma next_col_g_length : forall eqs prev d l, length prev = length eqs -> length (next_col_g eqs prev d l) = length eqs.
Proof.
  induction eqs as [|e eqs IH]; intros prev d l L; [reflexivity|]. destruct prev as [|u prev]; [discriminate|].
  cbn [next_col_g length]. f_equal. apply IH. simpl in L. lia.
Qed.

Lemma next_col_g_firstn : forall k eqs prev d l,
  firstn k (next_col_g eqs prev d l) = next_col_g (firstn k eqs) (firstn k prev) d l.
Proof.
  induction k as [|k IH]; intros eqs prev d l; [reflexivity|].
  destruct eqs as [|e eqs]; [reflexivity|]. destruct prev as [|u prev]; [reflexivity|].
  cbn [next_col_g firstn]. f_equal. apply IH.
Qed.

Lemma next_col_g_app : forall e1 c1 e2 c2 d l, length c1 = length e1 ->
  next_col_g (e1 ++ e2) (c1 ++ c2) d l =
  let n1 := next_col_g e1 c1 d l in n1 ++ next_col_g e2 c2 (last c1 d) (last n1 l).
Proof.
  induction e1 as [|e e1 IH]; intros c1 e2 c2 d l L.
  - destruct c1; [reflexivity|discriminate].
  - destruct c1 as [|up c1]; [discriminate|]. cbn [length] in L. injection L as L.
    cbn [app next_col_g]. rewrite IH by exact L. cbn zeta.
    rewrite !last_cons. reflexivity.
Qed.

Lemma vals_length : forall vps vns a, length vns = length vps -> length (vals a vps vns) = length vps.
Proof.
  induction vps as [|vp vps IH]; intros vns a L; [reflexivity|]. destruct vns as [|vn vns]; [discriminate|].
  cbn [vals length]. f_equal. apply IH. simpl in L. lia.
Qed.
Lemma vals_firstn : forall k vps vns a, firstn k (vals a vps vns) = vals a (firstn k vps) (firstn k vns).
Proof.
  induction k as [|k IH]; intros vps vns a; [reflexivity|].
  destruct vps as [|vp vps]; [reflexivity|]. destruct vns as [|vn vns]; [reflexivity|].
  cbn [vals firstn]. f_equal. apply IH.
Qed.
Lemma vals_ones : forall k a, vals a (repeat true k) (repeat false k) = map (fun i => a + Z.of_nat i + 1) (seq 0 k).
Proof.
  induction k as [|k IH]; intro a; [reflexivity|]. cbn [repeat vals seq map]. unfold dv at 1. cbn [b2z].
  f_equal; [lia|]. rewrite IH. rewrite <- seq_shift, map_map. apply map_ext. intro i. unfold dv. cbn [b2z]. lia.
Qed.
Lemma valid_false_r : forall ps k, valid ps (repeat false k).
Proof. induction ps as [|x ps IH]; intros [|k]; try exact I. cbn [repeat valid]. split; [apply andb_false_r|apply IH]. Qed.

Lemma serial_spec : forall eqs vps vns hp hn a,
  length vps = length eqs -> length vns = length eqs -> valid vps vns -> hp && hn = false ->
  forall vp' vn' hps hns, serial eqs vps vns hp hn = ((vp', vn'), (hps, hns)) ->
  let old := vals a vps vns in
  let new := next_col_g eqs old a (a + dv hp hn) in
  length vp' = length eqs /\ length vn' = length eqs /\ valid vp' vn' /\
  vals (a + dv hp hn) vp' vn' = new /\
  forall i, (i < length eqs)%nat -> dv (nth i hps false) (nth i hns false) = nth i new 0 - nth i old 0.
Proof.
  induction eqs as [|e eqs IH]; intros vps vns hp hn a L1 L2 V H vp' vn' hps hns ES.
  - destruct vps; [|discriminate]. destruct vns; [|discriminate]. injection ES as <- <- <- <-.
    cbn. repeat split; try reflexivity. intros i Hi. lia.
  - destruct vps as [|vp vps]; [discriminate|]. destruct vns as [|vn vns]; [discriminate|].
    cbn [length] in L1, L2. injection L1 as L1. injection L2 as L2. destruct V as [V0 V].
    cbn [serial] in ES. cbn zeta in ES.
    pose proof (cell_spec e vp vn hp hn a V0 H) as (C1 & C2 & C3 & C4). cbn zeta in C1, C2, C3, C4.
    destruct (cellf e vp vn hp hn) as [[v1 v2] [h1 h2]]. cbn [fst snd] in *.
    destruct (serial eqs vps vns h1 h2) as [[vp1 vn1] [hps1 hns1]] eqn:ER. cbn [fst snd] in ES.
    injection ES as <- <- <- <-.
    destruct (IH vps vns h1 h2 (a + dv vp vn) L1 L2 V C2 _ _ _ _ ER) as (I1 & I2 & I3 & I4 & I5).
    cbn zeta. cbn [vals next_col_g length valid].
    replace (a + dv hp hn + dv v1 v2) with (a + dv vp vn + dv h1 h2) in * by lia.
    replace (Z.min (Z.min (a + (if e then 0 else 1)) (a + dv vp vn + 1)) (a + dv hp hn + 1)) with (a + dv vp vn + dv h1 h2) by lia.
    repeat split; [congruence|congruence|exact C1|exact I3|f_equal; exact I4|].
    intros [|i] Hi; cbn [nth]; [lia|apply I5; lia].
Qed.
Definition word_step (Eq VP VN : word) (cin hpin hnin : bool) : (word * word) * (word * word) :=
  let X := wor Eq VN in
  let D0 := wor (wxor (wadd_c VP (wand X VP) cin) VP) X in
  let HN := wand VP D0 in
  let HP := wor VN (wnotb (wor VP D0)) in
  let X1 := wshl_in HP hpin in
  let VN' := wand X1 D0 in
  let VP' := wor (wshl_in HN hnin) (wnotb (wor X1 D0)) in
  ((VP', VN'), (HP, HN)).

Lemma word_step_cons e Eq vp VP vn VN cin hpin hnin :
  word_step (e :: Eq) (vp :: VP) (vn :: VN) cin hpin hnin =
  let x := e || vn in
  let d0 := xorb (xorb (xorb vp (x && vp)) cin) vp || x in
  let hn := vp && d0 in
  let hp := vn || negb (vp || d0) in
  let rest := word_step Eq VP VN (maj vp (x && vp) cin) hp hn in
  (((hnin || negb (hpin || d0)) :: fst (fst rest), (hpin && d0) :: snd (fst rest)),
   (hp :: fst (snd rest), hn :: snd (snd rest))).
Proof. reflexivity. Qed.

(* the carry-in handed to the adder is hnin itself, the minus-flag entering the first row; from there on the carry
   chain is the chain of "horizontal delta = -1" *)
Lemma word_step_serial : forall Eq VP VN hpin hnin, length VP = length Eq -> length VN = length Eq ->
  valid VP VN -> word_step Eq VP VN hnin hpin hnin = serial Eq VP VN hpin hnin.
Proof.
  induction Eq as [|e Eq IH]; intros VP VN hpin hnin L1 L2 V.
  - destruct VP; [|discriminate]. destruct VN; [|discriminate]. reflexivity.
  - destruct VP as [|vp VP]; [discriminate|]. destruct VN as [|vn VN]; [discriminate|].
    cbn [length] in L1, L2. injection L1 as L1. injection L2 as L2. destruct V as [V0 V].
    rewrite word_step_cons. cbn zeta. cbn [serial].
    (* with the adder's carry-in equal to the hn input: d0, hp, hn and the carry-out are the cell function's *)
    assert (D0 : xorb (xorb (xorb vp ((e || vn) && vp)) hnin) vp || (e || vn) = e || vn || hnin)
      by (destruct e, vp, vn, hnin; try discriminate; reflexivity).
    rewrite D0.
    assert (CARRY : maj vp ((e || vn) && vp) hnin = vp && (e || vn || hnin))
      by (destruct e, vp, vn, hnin; try discriminate; reflexivity).
    rewrite CARRY.
    unfold cellf. cbn [fst snd]. rewrite (orb_comm vp), (orb_comm hpin), (IH VP VN _ _ L1 L2 V). reflexivity.
Qed.

(* Myers' formulation of one block with an explicit carry-in instead of the "Eq |= 1" trick *)
Definition adv_gen (Eq Pv Mv : word) (cin hpin hnin : bool) : (word * word) * (word * word) :=
  let Xv := wor Eq Mv in
  let Xh := wor (wxor (wadd_c (wand Eq Pv) Pv cin) Pv) Eq in
  let Ph := wor Mv (wnotb (wor Xh Pv)) in
  let Mh := wand Pv Xh in
  let Ph1 := wshl_in Ph hpin in
  let Mh1 := wshl_in Mh hnin in
  ((wor Mh1 (wnotb (wor Xv Ph1)), wand Ph1 Xv), (Ph, Mh)).

Lemma adv_gen_cons e Eq pv Pv mv Mv cin hpin hnin :
  adv_gen (e :: Eq) (pv :: Pv) (mv :: Mv) cin hpin hnin =
  let xh := xorb (xorb (xorb (e && pv) pv) cin) pv || e in
  let ph := mv || negb (xh || pv) in
  let mh := pv && xh in
  let rest := adv_gen Eq Pv Mv (maj (e && pv) pv cin) ph mh in
  (((hnin || negb ((e || mv) || hpin)) :: fst (fst rest), (hpin && (e || mv)) :: snd (fst rest)),
   (ph :: fst (snd rest), mh :: snd (snd rest))).
Proof. reflexivity. Qed.

Lemma adv_gen_serial : forall Eq Pv Mv hpin hnin, length Pv = length Eq -> length Mv = length Eq ->
  valid Pv Mv -> hpin && hnin = false ->
  adv_gen Eq Pv Mv hnin hpin hnin = serial Eq Pv Mv hpin hnin.
Proof.
  induction Eq as [|e Eq IH]; intros Pv Mv hpin hnin L1 L2 V H.
  - destruct Pv; [|discriminate]. destruct Mv; [|discriminate]. reflexivity.
  - destruct Pv as [|pv Pv]; [discriminate|]. destruct Mv as [|mv Mv]; [discriminate|].
    cbn [length] in L1, L2. injection L1 as L1. injection L2 as L2. destruct V as [V0 V].
    rewrite adv_gen_cons. cbn zeta. cbn [serial]. unfold cellf. cbn [fst snd].
    assert (XH : xorb (xorb (xorb (e && pv) pv) hnin) pv || e = e || hnin)
      by (destruct e, pv, hnin; reflexivity).
    rewrite XH.
    assert (CARRY : maj (e && pv) pv hnin = pv && (e || hnin)) by (destruct e, pv, hnin; reflexivity).
    rewrite CARRY.
    (* the h-outputs of this row, in the cell function's form (they differ only where (pv, mv) would be invalid) *)
    assert (PH : mv || negb (e || hnin || pv) = mv || negb (e || mv || hnin || pv))
      by (destruct e, pv, mv, hnin; try discriminate; reflexivity).
    assert (MH : pv && (e || hnin) = pv && (e || mv || hnin))
      by (destruct e, pv, mv, hnin; try discriminate; reflexivity).
    rewrite PH, MH.
    assert (Hnext : (mv || negb (e || mv || hnin || pv)) && (pv && (e || mv || hnin)) = false)
      by (destruct e, pv, mv, hnin; try discriminate; reflexivity).
    rewrite (IH Pv Mv (mv || negb (e || mv || hnin || pv)) (pv && (e || mv || hnin)) L1 L2 V Hnext).
    replace (hnin || negb (e || mv || hpin)) with (hnin || negb (e || mv || hnin || hpin))
      by (destruct e, mv, hnin, hpin; reflexivity).
    replace (hpin && (e || mv)) with (hpin && (e || mv || hnin))
      by (destruct e, mv, hnin, hpin; try discriminate; reflexivity).
    reflexivity.
Qed.

Lemma set_bit0_is_carry : forall (e : bool) (Eq : word) (pv : bool) (Pv : word) (mv : bool) (Mv : word) (hpin hnin : bool),
  let Eq' := if hnin then set_bit0 (e :: Eq) else (e :: Eq) in
  let Xv := wor (e :: Eq) (mv :: Mv) in
  let Xh := wor (wxor (wadd_c (wand Eq' (pv :: Pv)) (pv :: Pv) false) (pv :: Pv)) Eq' in
  let Ph := wor (mv :: Mv) (wnotb (wor Xh (pv :: Pv))) in
  let Mh := wand (pv :: Pv) Xh in
  let Ph1 := wshl_in Ph hpin in
  let Mh1 := wshl_in Mh hnin in
  ((wor Mh1 (wnotb (wor Xv Ph1)), wand Ph1 Xv), (Ph, Mh)) = adv_gen (e :: Eq) (pv :: Pv) (mv :: Mv) hnin hpin hnin.
Proof.
  intros. unfold adv_gen. destruct hnin; [|reflexivity].
  subst Eq' Xv Xh Ph Mh Ph1 Mh1. cbn [set_bit0].
  cbn [wor wand wxor wzip wadd_c wnotb map wshl_in].
  destruct e, pv; reflexivity.
Qed.

Lemma advance_bits_serial : forall Eq0 Pv Mv hIn, (1 <= length Eq0)%nat ->
  length Pv = length Eq0 -> length Mv = length Eq0 -> valid Pv Mv ->
  advance_bits Eq0 hIn Pv Mv =
  let r := serial Eq0 Pv Mv (0 <? hIn) (hIn <? 0) in
  (fst (fst r), snd (fst r), b2z (wbit (fst (snd r)) 63) - b2z (wbit (snd (snd r)) 63)).
Proof.
  intros Eq0 Pv Mv hIn L0 L1 L2 V.
  destruct Eq0 as [|e Eq]; [simpl in L0; lia|].
  destruct Pv as [|pv Pv]; [discriminate|]. destruct Mv as [|mv Mv]; [discriminate|].
  rewrite <- (adv_gen_serial (e :: Eq) (pv :: Pv) (mv :: Mv) (0 <? hIn) (hIn <? 0) L1 L2 V (sign_flags_excl hIn)).
  rewrite <- (set_bit0_is_carry e Eq pv Pv mv Mv (0 <? hIn) (hIn <? 0)).
  reflexivity.
Qed.

Definition sedg (rowsf : Z -> list bool) (M : nat) (k0 : Z) (text : list Z) : Z :=
  snd (fold_left (fun st c => let '(col, best) := st in
                              let col' := next_col_g (rowsf c) col 0 0 in (col', Z.min best (last col' 0)))
                 text (map (fun i => Z.of_nat i + 1) (seq 0 M), k0)).

Definition dpstep (rowsf : Z -> list bool) (st : list Z * Z) (c : Z) : list Z * Z :=
  let '(col, best) := st in let col' := next_col_g (rowsf c) col 0 0 in (col', Z.min best (last col' 0)).
Definition column0 (M : nat) : list Z := map (fun i => Z.of_nat i + 1) (seq 0 M).

Lemma sedg_fold rowsf M k0 text : sedg rowsf M k0 text = snd (fold_left (dpstep rowsf) text (column0 M, k0)).
Proof. reflexivity. Qed.

Lemma sed_is_sedg t q : sed t q = sedg (fun c => map (fun x => x =? c) q) (length q) (Z.of_nat (length q)) t.
Proof.
  unfold sed, sedg. cbv zeta. generalize (map (fun i => Z.of_nat i + 1) (seq 0 (length q)), Z.of_nat (length q)).
  induction t as [|c t IH]; intros [col best]; [reflexivity|]. cbn [fold_left]. rewrite next_col_is_g. apply IH.
Qed.

(* B[c]: bit i set iff i < m and p[i] = c *)
Definition eq_word_w (w : nat) (c : Z) (p : list Z) : word :=
  map (fun i => match nth_error p i with Some x => x =? c | None => false end) (seq 0 w).

(* bpm_step of BpmBits.v with the width a parameter (bpm_step p m is bpm_step_w W p m) *)
Definition bpm_step_w (w : nat) (p : list Z) (m : nat) (st : word * word * Z * Z) (c : Z) : word * word * Z * Z :=
  let '(VP, VN, diff, k) := st in
  let X := wor (eq_word_w w c p) VN in
  let D0 := wor (wxor (wadd_c VP (wand X VP) false) VP) X in
  let HN := wand VP D0 in
  let HP := wor VN (wnotb (wor VP D0)) in
  let X1 := wshl_in HP false in
  let VN' := wand X1 D0 in
  let VP' := wor (wshl_in HN false) (wnotb (wor X1 D0)) in
  let diff' := diff + b2z (wbit HP (m - 1)) - b2z (wbit HN (m - 1)) in
  (VP', VN', diff', if diff' <? k then diff' else k).

(* the text loop from the initial plus-word VP0: bpm starts from 2^m - 1, bpm_256 from all ones *)
Definition bpmw_bits (w : nat) (VP0 : word) (t p : list Z) : Z :=
  let m := length p in
  let '(_, _, _, k) := fold_left (bpm_step_w w p m) t (VP0, repeat false w, Z.of_nat m, Z.of_nat m) in
  k.

Lemma bpm64_bits_is_bpmw t p0 :
  bpm64_bits t p0 =
  let p := firstn 63 p0 in bpmw_bits W (repeat true (length p) ++ repeat false (W - length p)) t p.
Proof. reflexivity. Qed.

Lemma eq_rows : forall (c : Z) p,
  map (fun i => match nth_error p i with Some x => x =? c | None => false end) (seq 0 (length p)) = map (fun x => x =? c) p.
Proof.
  intros c p. induction p as [|x p IH]; [reflexivity|].
  cbn [length seq map nth_error]. f_equal. rewrite <- seq_shift, map_map. cbn [nth_error]. exact IH.
Qed.

Lemma firstn_seq0 : forall m k, (m <= k)%nat -> firstn m (seq 0 k) = seq 0 m.
Proof.
  intros m k H. replace k with (m + (k - m))%nat by lia. rewrite seq_app, firstn_app, seq_length.
  replace (m - m)%nat with 0%nat by lia. cbn [firstn]. rewrite app_nil_r.
  rewrite <- (seq_length m 0) at 1. apply firstn_all.
Qed.

Lemma eq_word_w_firstn w c p : (length p <= w)%nat -> firstn (length p) (eq_word_w w c p) = map (fun x => x =? c) p.
Proof. intro H. unfold eq_word_w. rewrite firstn_map, firstn_seq0 by exact H. apply eq_rows. Qed.

Section TextW.
Variable w : nat.
Variable p : list Z.
Variable VP0 : word.
Let m := length p.
Hypothesis Hm : (1 <= m <= w)%nat.
Hypothesis HV0 : length VP0 = w.
Hypothesis HV1 : firstn m VP0 = repeat true m.

(* only the first m rows count: rows m .. w-1 of the words are whatever the formulas make of them *)
Definition InvW (st : word * word * Z * Z) (cb : list Z * Z) : Prop :=
  let '(VP, VN, diff, k) := st in
  let '(col, best) := cb in
  length VP = w /\ length VN = w /\ valid VP VN /\
  col = firstn m (vals 0 VP VN) /\ diff = nth (m - 1) col 0 /\ k = best.

Lemma bpm_step_w_is_word_step c VP VN diff k :
  bpm_step_w w p m (VP, VN, diff, k) c =
  let r := word_step (eq_word_w w c p) VP VN false false false in
  let diff' := diff + b2z (wbit (fst (snd r)) (m - 1)) - b2z (wbit (snd (snd r)) (m - 1)) in
  (fst (fst r), snd (fst r), diff', if diff' <? k then diff' else k).
Proof. reflexivity. Qed.

Lemma step_inv_w : forall st cb c, InvW st cb ->
  InvW (bpm_step_w w p m st c) (dpstep (fun c => map (fun x => x =? c) p) cb c).
Proof.
  intros [[[VP VN] diff] k] [col best] c (L1 & L2 & V & Hc & Hd & Hk).
  assert (LE : length (eq_word_w w c p) = w) by (unfold eq_word_w; rewrite map_length, seq_length; reflexivity).
  rewrite bpm_step_w_is_word_step, word_step_serial by (rewrite ?LE; assumption).
  destruct (serial (eq_word_w w c p) VP VN false false) as [[VP' VN'] [HP HN]] eqn:ES.
  destruct (serial_spec (eq_word_w w c p) VP VN false false 0 ltac:(rewrite LE; exact L1) ltac:(rewrite LE; exact L2) V eq_refl _ _ _ _ ES)
    as (A1 & A2 & V' & S1 & SD).
  rewrite LE in A1, A2, SD. change (0 + dv false false) with 0 in S1, SD.
  set (old := vals 0 VP VN) in *. set (new := next_col_g (eq_word_w w c p) old 0 0) in *.
  assert (Lold : length old = w) by (unfold old; rewrite vals_length; congruence).
  assert (Lnew : length new = w) by (rewrite <- S1, vals_length; congruence).
  assert (F : firstn m new = next_col_g (map (fun x => x =? c) p) col 0 0).
  { unfold new. rewrite next_col_g_firstn. unfold m at 1. rewrite eq_word_w_firstn by (fold m; lia). rewrite Hc. reflexivity. }
  cbn zeta. cbn [fst snd dpstep]. rewrite <- F.
  assert (D' : diff + b2z (wbit HP (m - 1)) - b2z (wbit HN (m - 1)) = nth (m - 1) (firstn m new) 0).
  { specialize (SD (m - 1)%nat ltac:(lia)). rewrite Hd, Hc, !nth_firstn_lt by lia. unfold dv, wbit in *. lia. }
  repeat split; try assumption; [rewrite S1; reflexivity|].
  rewrite if_ltb_min, Hk, D', last_nth, firstn_length, Lnew. f_equal. f_equal. lia.
Qed.

Lemma init_inv_w : InvW (VP0, repeat false w, Z.of_nat m, Z.of_nat m) (column0 m, Z.of_nat m).
Proof.
  repeat split; [exact HV0|apply repeat_length|apply valid_false_r| |].
  - rewrite vals_firstn, HV1, firstn_repeat, Nat.min_l, vals_ones by lia. reflexivity.
  - unfold column0. rewrite nth_map_seq by lia. lia.
Qed.

Theorem bpmw_bits_is_sed : forall t, bpmw_bits w VP0 t p = sed t p.
Proof.
  intro t. rewrite sed_is_sedg, sedg_fold. unfold bpmw_bits. fold m.
  pose proof (fold_left_rel InvW _ _ step_inv_w t _ _ init_inv_w) as G.
  destruct (fold_left (bpm_step_w w p m) t _) as [[[VP VN] diff] k].
  destruct (fold_left (dpstep _) t _) as [col best]. apply G.
Qed.
End TextW.

Lemma last_app_last {X} : forall (l1 l2 : list X) d, last (l1 ++ l2) d = last l2 (last l1 d).
Proof. induction l1 as [|x l1 IH]; intros l2 d; [reflexivity|]. cbn [app]. rewrite !last_cons. apply IH. Qed.

Lemma vals_last_le : forall vps vns a, length vns = length vps -> last (vals a vps vns) a <= a + Z.of_nat (length vps).
Proof.
  induction vps as [|vp vps IH]; intros vns a L; [simpl; lia|].
  destruct vns as [|vn vns]; [discriminate|]. cbn [vals]. rewrite last_cons.
  specialize (IH vns (a + dv vp vn)). cbn [length] in *. injection L as L. specialize (IH L).
  unfold dv, b2z in *. destruct vp, vn; lia.
Qed.

Definition blk_ok (a : Z) (b : bblk) : Prop :=
  length (bbP b) = W /\ length (bbM b) = W /\ valid (bbP b) (bbM b) /\ bbScore b = last (vals a (bbP b) (bbM b)) a.
Fixpoint blocks_ok (a : Z) (bs : list bblk) : Prop :=
  match bs with [] => True | b :: bs' => blk_ok a b /\ blocks_ok (bbScore b) bs' end.
Fixpoint colvals (a : Z) (bs : list bblk) : list Z :=
  match bs with [] => [] | b :: bs' => vals a (bbP b) (bbM b) ++ colvals (bbScore b) bs' end.

(* one block: the block step of bpm_block (advance_bits) takes the column recurrence through its 64 rows; the new score
   is the new value at the block's last row, because the delta handed down (bit 63 of Ph, Mh) is new - old there *)
Lemma advance_bits_dp e b a h : length e = W -> blk_ok a b -> -1 <= h <= 1 ->
  let '(P', M', h') := advance_bits e h (bbP b) (bbM b) in
  blk_ok (a + h) (mkBB P' M' (bbScore b + h')) /\
  vals (a + h) P' M' = next_col_g e (vals a (bbP b) (bbM b)) a (a + h) /\ -1 <= h' <= 1.
Proof.
  intros Le (P1 & P2 & PV & PS) Hc.
  rewrite (advance_bits_serial e (bbP b) (bbM b) h) by (rewrite ?Le, ?P1, ?P2; unfold W; lia || assumption).
  cbn zeta.
  destruct (serial e (bbP b) (bbM b) (0 <? h) (h <? 0)) as [[P' M'] [HP HN]] eqn:ES. cbn [fst snd].
  destruct (serial_spec e (bbP b) (bbM b) _ _ a ltac:(rewrite Le; exact P1) ltac:(rewrite Le; exact P2) PV (sign_flags_excl _) _ _ _ _ ES)
    as (A1 & A2 & V' & S1 & SD).
  rewrite dv_sign_flags in S1, SD by exact Hc. rewrite Le in A1, A2, SD. specialize (SD 63%nat ltac:(unfold W; lia)).
  set (old := vals a (bbP b) (bbM b)) in *. set (new := next_col_g e old a (a + h)) in *.
  assert (Lold : length old = W) by (unfold old; rewrite vals_length; congruence).
  assert (Lnew : length new = W) by (rewrite <- S1, vals_length; congruence).
  unfold blk_ok. cbn [bbP bbM bbScore]. rewrite S1. repeat split; try assumption.
  - rewrite PS, (last_nth new), (last_nth old), Lnew, Lold.
    rewrite (nth_indep new _ 0), (nth_indep old a 0) by (rewrite ?Lnew, ?Lold; unfold W; lia).
    unfold wbit, dv, W in *. cbn [Nat.sub]. lia.
  - unfold b2z. destruct (wbit HP 63), (wbit HN 63); lia.
  - unfold b2z. destruct (wbit HP 63), (wbit HN 63); lia.
Qed.

Lemma column_bits_dp : forall eqs blocks a h,
  length eqs = length blocks -> Forall (fun e => length e = W) eqs -> blocks_ok a blocks -> -1 <= h <= 1 ->
  let r := column_bits eqs blocks h in
  blocks_ok (a + h) (fst r) /\ colvals (a + h) (fst r) = next_col_g (concat eqs) (colvals a blocks) a (a + h) /\
  length (fst r) = length blocks.
Proof.
  induction eqs as [|e eqs IH]; intros blocks a h L FE OK Hc.
  - destruct blocks; [|discriminate]. cbn. auto.
  - destruct blocks as [|b blocks]; [discriminate|]. cbn [length] in L. injection L as L.
    inversion FE as [|? ? Le FE']; subst. destruct OK as [OKb OK'].
    cbn [column_bits]. pose proof (advance_bits_dp e b a h Le OKb Hc) as D.
    destruct (advance_bits e h (bbP b) (bbM b)) as [[P' M'] h']. destruct D as (OK1 & S1 & HR).
    specialize (IH blocks (bbScore b) h' L FE' OK' HR). cbn zeta in IH.
    destruct (column_bits eqs blocks h') as [rest c']. cbn [fst snd] in *. destruct IH as (I1 & I2 & I3).
    destruct OKb as (P1 & P2 & _ & PS). pose proof OK1 as (_ & _ & _ & NS). cbn [bbP bbM bbScore] in NS.
    split; [split; assumption|]. split; [|cbn [length]; congruence].
    cbn [colvals bbP bbM bbScore concat]. rewrite next_col_g_app by (rewrite vals_length; congruence). cbn zeta.
    rewrite S1, I2 in *. f_equal. f_equal; assumption.
Qed.

Lemma blocks_last : forall bs a, blocks_ok a bs ->
  last (map bbScore bs) a = last (colvals a bs) a /\ last (colvals a bs) a <= a + 64 * Z.of_nat (length bs).
Proof.
  induction bs as [|b bs IH]; intros a OK; [cbn; lia|]. destruct OK as [(P1 & P2 & PV & PS) OK'].
  cbn [map colvals length]. rewrite last_cons, last_app_last, <- PS. destruct (IH _ OK') as [I1 I2]. split; [exact I1|].
  pose proof (vals_last_le (bbP b) (bbM b) a ltac:(congruence)) as LE. rewrite <- PS, P1 in LE. unfold W in LE. lia.
Qed.

Lemma init_blocks_ok : forall k a0,
  let bs := map (fun b => mkBB (repeat true W) (repeat false W) (Z.of_nat ((b + 1) * 64))) (seq a0 k) in
  blocks_ok (Z.of_nat (a0 * 64)) bs /\ colvals (Z.of_nat (a0 * 64)) bs = map (fun i => Z.of_nat i + 1) (seq (a0 * 64) (64 * k)).
Proof.
  induction k as [|k IH]; intro a0; cbn zeta; [split; [exact I|reflexivity]|].
  cbn [seq map blocks_ok colvals bbP bbM bbScore]. unfold blk_ok. cbn [bbP bbM bbScore]. rewrite !repeat_length, vals_ones.
  destruct (IH (S a0)) as (I1 & I2). replace ((a0 + 1) * 64)%nat with (S a0 * 64)%nat by lia.
  split; [split; [split; [reflexivity|split; [reflexivity|split; [apply valid_false_r|]]]|exact I1]|].
  - rewrite last_nth, map_length, seq_length, nth_map_seq by (unfold W; lia). unfold W. lia.
  - rewrite I2. replace (64 * S k)%nat with (64 + 64 * k)%nat by lia. rewrite seq_app, map_app. f_equal.
    + rewrite (seq_add 64 (a0 * 64)), map_map. apply map_ext. intro i. lia.
    + f_equal. f_equal. lia.
Qed.

Lemma shrink_noop : forall fuel scores y lim, (1 <= fuel)%nat -> nth y scores 0 < lim -> shrink fuel scores y lim = y.
Proof.
  intros [|f] scores y lim H Hn; [lia|]. cbn [shrink].
  destruct (Z.leb_spec lim (nth y scores 0)); [lia|reflexivity].
Qed.

Lemma div_ceil_facts m : (1 <= m)%nat ->
  (1 <= div_ceil m 64)%nat /\ (m <= 64 * div_ceil m 64)%nat /\ (64 * div_ceil m 64 < m + 64)%nat.
Proof.
  intro H. unfold div_ceil. destruct (Nat.eqb_spec m 0); [lia|].
  pose proof (Nat.div_mod m 64 ltac:(lia)) as D. pose proof (Nat.mod_upper_bound m 64 ltac:(lia)) as U.
  destruct (Nat.eqb_spec (m mod 64) 0); lia.
Qed.

Definition minl (x : Z) (l : list Z) : Z := fold_left Z.min l x.

Lemma minl_le_init : forall l x, minl x l <= x.
Proof. induction l as [|y l IH]; intro x; simpl; [lia|]. etransitivity; [apply IH|]. lia. Qed.
Lemma minl_le_elem : forall l x y, In y l -> minl x l <= y.
Proof.
  induction l as [|z l IH]; intros x y H; [contradiction|]. simpl. destruct H as [->|H].
  - etransitivity; [apply minl_le_init|]. lia.
  - apply IH. exact H.
Qed.
Lemma minl_ge : forall l x b, b <= x -> (forall y, In y l -> b <= y) -> b <= minl x l.
Proof.
  induction l as [|z l IH]; intros x b Hx H; simpl; [exact Hx|].
  apply IH; [|intros y Hy; apply H; right; exact Hy]. specialize (H z (or_introl eq_refl)). lia.
Qed.

(* the wildcard rows below a row whose values along the text are A 0, A 1, ..: Wm r j is the value r rows below
   (the diagonal term has + 0: a wildcard matches every symbol) *)
Section Wild.
Variable top : nat -> Z.
Fixpoint Wm (r : nat) : nat -> Z :=
  match r with
  | O => top
  | S r' => fix row (j : nat) : Z :=
      match j with
      | O => top 0%nat + Z.of_nat (S r')
      | S j' => Z.min (Z.min (Wm r' j' + 0) (row j' + 1)) (Wm r' (S j') + 1)
      end
  end.

Lemma Wm_S_S r j : Wm (S r) (S j) = Z.min (Z.min (Wm r j + 0) (Wm (S r) j + 1)) (Wm r (S j) + 1).
Proof. reflexivity. Qed.
Lemma Wm_S_0 r : Wm (S r) 0 = top 0%nat + Z.of_nat (S r).
Proof. reflexivity. Qed.

(* following the diagonal through the wildcards costs nothing *)
Lemma Wm_diag : forall r j, Wm r (j + r) <= top j.
Proof.
  induction r as [|r IH]; intro j; [rewrite Nat.add_0_r; simpl; lia|].
  replace (j + S r)%nat with (S (j + r)) by lia. rewrite Wm_S_S. specialize (IH j). lia.
Qed.

Variable n : nat.
Variable mu : Z.
Hypothesis top_lb : forall j, (j <= n)%nat -> mu <= top j.
Hypothesis top_step : forall j, top j - 1 <= top (S j).

Lemma top_far : forall j, mu - Z.max 0 (Z.of_nat j - Z.of_nat n) <= top j.
Proof.
  induction j as [|j IH]; [pose proof (top_lb 0%nat (Nat.le_0_l n)); lia|].
  destruct (Nat.le_gt_cases (S j) n) as [H|H]; [pose proof (top_lb (S j) H); lia|].
  pose proof (top_step j). lia.
Qed.

Lemma Wm_lb : forall r j, mu - Z.max 0 (Z.of_nat j - Z.of_nat n - Z.of_nat r) <= Wm r j.
Proof.
  induction r as [|r IHr]; intro j.
  - simpl. pose proof (top_far j). lia.
  - induction j as [|j IHj].
    + rewrite Wm_S_0. pose proof (top_lb 0%nat (Nat.le_0_l n)). lia.
    + rewrite Wm_S_S. pose proof (IHr j). pose proof (IHr (S j)). lia.
Qed.
End Wild.

Lemma wild_rows_step : forall (top : nat -> Z) j k r0,
  next_col_g (repeat true k) (map (fun r => Wm top (S r) j) (seq r0 k)) (Wm top r0 j) (Wm top r0 (S j)) =
  map (fun r => Wm top (S r) (S j)) (seq r0 k).
Proof.
  intros top j. induction k as [|k IH]; intro r0; [reflexivity|].
  cbn [repeat seq map next_col_g]. rewrite <- Wm_S_S. f_equal. apply IH.
Qed.

Lemma fold_min_prefixes : forall (f : list Z -> Z -> list Z) T c0 b0,
  fold_left (fun st c => let '(col, best) := st in let col' := f col c in (col', Z.min best (last col' 0))) T (c0, b0) =
  (fold_left f T c0, minl b0 (map (fun j => last (fold_left f (firstn j T) c0) 0) (seq 1 (length T)))).
Proof.
  intros f T. induction T as [|c T IH] using rev_ind; intros c0 b0; [reflexivity|].
  rewrite fold_left_app. rewrite IH. cbn [fold_left]. rewrite fold_left_app. cbn [fold_left]. f_equal.
  rewrite app_length. cbn [length]. rewrite Nat.add_1_r. rewrite seq_S, map_app. unfold minl. rewrite fold_left_app.
  cbn [map fold_left]. f_equal.
  - f_equal. apply map_ext_in. intros j Hj. apply in_seq in Hj. rewrite firstn_app.
    replace (j - length T)%nat with 0%nat by lia. cbn [firstn]. rewrite app_nil_r. reflexivity.
  - rewrite firstn_all2 by (rewrite app_length; simpl; lia). rewrite fold_left_app. reflexivity.
Qed.

Lemma sedg_as_min rows M k0 text :
  sedg rows M k0 text =
  minl k0 (map (fun j => last (fold_left (fun col c => next_col_g (rows c) col 0 0) (firstn j text) (column0 M)) 0)
               (seq 1 (length text))).
Proof.
  unfold sedg.
  exact (f_equal snd (fold_min_prefixes (fun col c => next_col_g (rows c) col 0 0) text (column0 M) k0)).
Qed.

Definition encodable (M : nat) (col : list Z) : Prop :=
  exists vps vns, col = vals 0 vps vns /\ length vps = M /\ length vns = M /\ valid vps vns.

Lemma encodable_length M col : encodable M col -> length col = M.
Proof. intros (vps & vns & -> & L1 & L2 & _). rewrite vals_length; congruence. Qed.

Lemma encodable_step eqs col : (1 <= length eqs)%nat -> encodable (length eqs) col ->
  encodable (length eqs) (next_col_g eqs col 0 0) /\ last col 0 - 1 <= last (next_col_g eqs col 0 0) 0.
Proof.
  intros H (vps & vns & -> & L1 & L2 & V).
  destruct (serial eqs vps vns false false) as [[vp' vn'] [hps hns]] eqn:ES.
  destruct (serial_spec eqs vps vns false false 0 L1 L2 V eq_refl _ _ _ _ ES) as (A1 & A2 & V' & S1 & SD).
  change (0 + dv false false) with 0 in S1, SD. split; [exists vp', vn'; auto|].
  specialize (SD (length eqs - 1)%nat ltac:(lia)).
  rewrite !last_nth, next_col_g_length, vals_length, L1 by (rewrite ?vals_length; congruence).
  unfold dv, b2z in SD. destruct (nth _ hps false), (nth _ hns false); lia.
Qed.

Section Neutral.
Variable q : list Z.
Let m := length q.
Hypothesis Hm : (1 <= m)%nat.
Variable Wd : nat.                 (* number of wildcard rows = number of padding columns *)
Variable t : list Z.
Let n := length t.
Let T := t ++ repeat 0 Wd.

Definition rowsR (c : Z) : list bool := map (fun x => x =? c) q.
Definition rowsP (c : Z) : list bool := rowsR c ++ repeat true Wd.
Definition col0 : list Z := map (fun i => Z.of_nat i + 1) (seq 0 m).
Definition stepR (col : list Z) (c : Z) : list Z := next_col_g (rowsR c) col 0 0.
Definition stepP (col : list Z) (c : Z) : list Z := next_col_g (rowsP c) col 0 0.
Definition Rcol (T' : list Z) : list Z := fold_left stepR T' col0.
(* T is the padded text; Rcol T' the column of the real rows 1..m after the text T'; A j its last entry after j
   symbols of T: the row the wildcard rows hang below (col0, A, A0 keep these names outside the section) *)
Definition A (j : nat) : Z := last (Rcol (firstn j T)) 0.

Lemma Rcol_snoc T' c : Rcol (T' ++ [c]) = stepR (Rcol T') c.
Proof. unfold Rcol. rewrite fold_left_app. reflexivity. Qed.

Lemma Rcol_step T' c : encodable m (Rcol T') ->
  encodable m (Rcol (T' ++ [c])) /\ last (Rcol T') 0 - 1 <= last (Rcol (T' ++ [c])) 0.
Proof.
  intros E. rewrite Rcol_snoc. unfold stepR.
  pose proof (encodable_step (rowsR c) (Rcol T')) as S. unfold rowsR in S at 1 2 3. rewrite map_length in S. exact (S Hm E).
Qed.

Lemma Rcol_encodable : forall T', encodable m (Rcol T').
Proof.
  induction T' as [|c T' IH] using rev_ind; [|apply Rcol_step, IH].
  exists (repeat true m), (repeat false m). unfold Rcol, col0. cbn [fold_left]. rewrite !repeat_length, vals_ones.
  repeat split; apply valid_false_r.
Qed.

Lemma A_step : forall j, A j - 1 <= A (S j).
Proof.
  intro j. unfold A.
  destruct (Nat.le_gt_cases (length T) j) as [H|H]; [rewrite !firstn_all2 by lia; lia|].
  rewrite (firstn_S_nth 0) by exact H. apply Rcol_step, Rcol_encodable.
Qed.

Lemma A0 : A 0 = Z.of_nat m.
Proof.
  unfold A, Rcol. cbn [firstn fold_left]. unfold col0. rewrite last_nth, map_length, seq_length, nth_map_seq by lia. lia.
Qed.

Lemma A_S j : (j < length T)%nat -> A (S j) = last (stepR (Rcol (firstn j T)) (nth j T 0)) 0.
Proof. intros H. unfold A. rewrite (firstn_S_nth 0), Rcol_snoc by exact H. reflexivity. Qed.

Lemma Pcol_split : forall j, (j <= length T)%nat ->
  fold_left stepP (firstn j T) (column0 (m + Wd)) = Rcol (firstn j T) ++ map (fun r => Wm A (S r) j) (seq 0 Wd).
Proof.
  induction j as [|j IH]; intro Hj.
  - cbn [firstn fold_left]. unfold Rcol. cbn [fold_left]. unfold column0, col0. rewrite seq_app, map_app. f_equal.
    rewrite (seq_add Wd (0 + m)), map_map. apply map_ext. intro r. rewrite Wm_S_0, A0. lia.
  - rewrite (firstn_S_nth 0), fold_left_app by lia. cbn [fold_left]. rewrite IH by lia.
    unfold stepP at 1. unfold rowsP.
    rewrite next_col_g_app by (rewrite (encodable_length _ _ (Rcol_encodable _)); unfold rowsR; rewrite map_length; reflexivity).
    cbn zeta. rewrite Rcol_snoc. f_equal.
    (* the wildcard rows see the real column only through its last entry: A j before, A (S j) after *)
    fold (stepR (Rcol (firstn j T)) (nth j T 0)). fold (A j). rewrite <- A_S by lia.
    apply (wild_rows_step A j Wd 0).
Qed.

Lemma last_Pcol : forall j, (j <= length T)%nat -> last (fold_left stepP (firstn j T) (column0 (m + Wd))) 0 = Wm A Wd j.
Proof.
  intros j Hj. rewrite Pcol_split by exact Hj. generalize Wd. intros [|k]; [cbn [seq map]; rewrite app_nil_r; reflexivity|].
  rewrite seq_S, map_app, app_assoc. apply last_last.
Qed.

Theorem padding_neutral :
  sedg rowsP (m + Wd) (Z.of_nat m) T = sed t q.
Proof.
  rewrite sed_is_sedg, !sedg_as_min. fold m. change (column0 m) with col0. fold n.
  change (fun col c => next_col_g (rowsP c) col 0 0) with stepP.
  change (fun col c => next_col_g (map (fun x => x =? c) q) col 0 0) with stepR.
  assert (MU : map (fun j => last (fold_left stepR (firstn j t) col0) 0) (seq 1 n) = map A (seq 1 n)).
  { apply map_ext_in. intros j Hj. apply in_seq in Hj. unfold A, Rcol, T. rewrite firstn_app.
    replace (j - length t)%nat with 0%nat by (fold n; lia). cbn [firstn]. rewrite app_nil_r. reflexivity. }
  rewrite MU.
  assert (LT : length T = (n + Wd)%nat) by (unfold T; rewrite app_length, repeat_length; reflexivity).
  assert (PL : map (fun j => last (fold_left stepP (firstn j T) (column0 (m + Wd))) 0) (seq 1 (length T)) = map (Wm A Wd) (seq 1 (n + Wd))).
  { rewrite LT. apply map_ext_in. intros j Hj. apply in_seq in Hj. apply last_Pcol. lia. }
  rewrite PL.
  apply Z.le_antisymm.
  - (* <= : every candidate of the real minimum is matched by a padded column *)
    apply minl_ge; [apply minl_le_init|].
    intros y Hy. apply in_map_iff in Hy as (j & <- & Hj). apply in_seq in Hj.
    etransitivity; [|apply (Wm_diag A Wd j)].
    apply minl_le_elem. apply in_map_iff. exists (j + Wd)%nat. split; [reflexivity|]. apply in_seq. lia.
  - (* >= : no padded column gets below the real minimum *)
    apply minl_ge; [apply minl_le_init|].
    intros y Hy. apply in_map_iff in Hy as (j & <- & Hj). apply in_seq in Hj.
    pose proof (Wm_lb A n (minl (Z.of_nat m) (map A (seq 1 n)))) as LB.
    assert (H1 : forall j0, (j0 <= n)%nat -> minl (Z.of_nat m) (map A (seq 1 n)) <= A j0).
    { intros j0 Hj0. destruct j0 as [|j0]; [rewrite A0; apply minl_le_init|].
      apply minl_le_elem. apply in_map_iff. exists (S j0). split; [reflexivity|]. apply in_seq. lia. }
    specialize (LB H1 A_step Wd j). lia.
Qed.
End Neutral.

Lemma concat_blocks : forall (g : nat -> bool) k,
  concat (map (fun b => map (fun i => g (64 * b + i)%nat) (seq 0 W)) (seq 0 k)) = map g (seq 0 (64 * k)).
Proof.
  intros g k. induction k as [|k IH]; [reflexivity|].
  rewrite seq_S, map_app, concat_app, IH. cbn [map concat]. rewrite app_nil_r.
  replace (64 * S k)%nat with (64 * k + 64)%nat by lia. rewrite seq_app, map_app. f_equal.
  cbn [Nat.add]. rewrite (seq_add 64 (64 * k)), map_map. reflexivity.
Qed.

Lemma map_true_seq : forall k s, map (fun _ : nat => true) (seq s k) = repeat true k.
Proof. induction k as [|k IH]; intro s; [reflexivity|]. cbn [seq map repeat]. f_equal. apply IH. Qed.

(* bpm_block_bits with the clamped pattern length m = min(|p|, 1024) as a parameter *)
Definition block_step (p : list Z) (m : nat) (st : list bblk * nat * Z) (c : Z) : list bblk * nat * Z :=
  let '(blocks, y, k) := st in
  let eqs := map (fun b => peq_word c p m b) (seq 0 (S y)) in
  let '(act, carry) := column_bits eqs (firstn (S y) blocks) 0 in
  let blocks' := act ++ skipn (S y) blocks in
  let y' := shrink (S y) (map bbScore blocks') y (Z.of_nat m + 64) in
  let sy := nth y' (map bbScore blocks') 0 in
  (blocks', y', if sy <? k then sy else k).
Definition bpm_block_run (p : list Z) (m : nat) (t : list Z) : Z :=
  let b_max := div_ceil m 64 in
  let init := map (fun b => mkBB (repeat true W) (repeat false W) (Z.of_nat ((b + 1) * 64))) (seq 0 (S (b_max - 1))) in
  let '(_, _, k) := fold_left (block_step p m) (t ++ repeat 0 (64 * b_max - m)) (init, (b_max - 1)%nat, Z.of_nat m) in
  k.

Lemma bpm_block_bits_run t p : bpm_block_bits t p = bpm_block_run p (Nat.min (length p) 1024) t.
Proof. reflexivity. Qed.

Section BlockText.
Variables (p q : list Z) (m : nat).
Let b_max := div_ceil m 64.
Let Wd := (64 * b_max - m)%nat.
Hypothesis Hm : (1 <= m)%nat.
Hypothesis Lq : length q = m.
Hypothesis Hq : forall i, (i < m)%nat -> nth_error p i = nth_error q i.

(* the active-block index never moves: all blocks are computed for every text symbol *)
Definition InvB (st : list bblk * nat * Z) (cb : list Z * Z) : Prop :=
  let '(blocks, y, k) := st in
  let '(col, best) := cb in
  y = (b_max - 1)%nat /\ length blocks = b_max /\ blocks_ok 0 blocks /\ colvals 0 blocks = col /\ k = best.

Lemma peq_words_len c : Forall (fun e => length e = W) (map (fun b => peq_word c p m b) (seq 0 b_max)).
Proof. apply Forall_forall. intros e He. apply in_map_iff in He as (b & <- & _). unfold peq_word. rewrite map_length, seq_length. reflexivity. Qed.

Lemma peq_words_concat c : concat (map (fun b => peq_word c p m b) (seq 0 b_max)) = rowsP q Wd c.
Proof.
  destruct (div_ceil_facts m Hm) as (B1 & B2 & B3). fold b_max in B1, B2, B3.
  unfold peq_word. rewrite (concat_blocks (fun pos => (m <=? pos)%nat || match nth_error p pos with Some x => x =? c | None => false end)).
  replace (64 * b_max)%nat with (length q + Wd)%nat by (unfold Wd; lia). rewrite seq_app, map_app. unfold rowsP. f_equal.
  - unfold rowsR. rewrite <- (eq_rows c q). apply map_ext_in. intros i Hi. apply in_seq in Hi.
    replace (m <=? i)%nat with false by (symmetry; apply Nat.leb_gt; lia). rewrite Hq by lia. reflexivity.
  - cbn [Nat.add]. rewrite <- (map_true_seq Wd (length q)). apply map_ext_in. intros i Hi. apply in_seq in Hi.
    replace (m <=? i)%nat with true by (symmetry; apply Nat.leb_le; lia). reflexivity.
Qed.

Lemma block_step_inv : forall st cb c, InvB st cb -> InvB (block_step p m st c) (dpstep (rowsP q Wd) cb c).
Proof.
  intros [[blocks y] k] [col best] c (Hy & Hl & OK & Hc & Hk).
  destruct (div_ceil_facts m Hm) as (B1 & B2 & B3). fold b_max in B1, B2, B3.
  unfold block_step. replace (S y) with b_max by lia. rewrite firstn_all2, skipn_all2 by lia.
  pose proof (column_bits_dp (map (fun b => peq_word c p m b) (seq 0 b_max)) blocks 0 0) as D.
  rewrite map_length, seq_length in D. specialize (D (eq_sym Hl) (peq_words_len c) OK ltac:(lia)).
  cbn zeta in D. change (0 + 0) with 0 in D. rewrite peq_words_concat, Hc in D.
  destruct (column_bits _ blocks 0) as [act carry]. cbn [fst snd] in D. destruct D as (D1 & D2 & D3). rewrite app_nil_r.
  destruct (blocks_last act 0 D1) as (L1 & L2).
  rewrite last_nth, map_length, D3, Hl, <- Hy in L1. rewrite D3, Hl in L2.
  (* score <= 64 * b_max < m + 64: the shrink loop does nothing *)
  rewrite (shrink_noop b_max (map bbScore act) y (Z.of_nat m + 64)) by lia.
  cbn [dpstep]. rewrite <- D2. repeat split; try assumption; [congruence|].
  rewrite if_ltb_min, L1, Hk. reflexivity.
Qed.

Theorem bpm_block_run_is_padded_dp : forall t,
  bpm_block_run p m t = sedg (rowsP q Wd) (64 * b_max) (Z.of_nat m) (t ++ repeat 0 Wd).
Proof.
  intro t. rewrite sedg_fold. unfold bpm_block_run. fold b_max. fold Wd.
  destruct (div_ceil_facts m Hm) as (B1 & _). fold b_max in B1.
  replace (S (b_max - 1)) with b_max by lia.
  destruct (init_blocks_ok b_max 0) as (I1 & I2).
  pose proof (fold_left_rel InvB _ _ block_step_inv (t ++ repeat 0 Wd)
    (map (fun b => mkBB (repeat true W) (repeat false W) (Z.of_nat ((b + 1) * 64))) (seq 0 b_max), (b_max - 1)%nat, Z.of_nat m)
    (column0 (64 * b_max), Z.of_nat m)) as G.
  destruct (fold_left (block_step p m) _ _) as [[blocks y] k]. destruct (fold_left (dpstep _) _ _) as [col best].
  apply G. repeat split; [rewrite map_length, seq_length; reflexivity|exact I1|exact I2].
Qed.
End BlockText.

Theorem bpm_block_bits_is_sed : forall t p, (1 <= length p)%nat ->
  bpm_block_bits t p = sed t (firstn 1024 p).
Proof.
  intros t p Hp. rewrite bpm_block_bits_run.
  assert (Lq : length (firstn 1024 p) = Nat.min (length p) 1024) by (rewrite firstn_length; lia).
  assert (Hq : forall i, (i < Nat.min (length p) 1024)%nat -> nth_error p i = nth_error (firstn 1024 p) i).
  { intros i Hi. symmetry. apply nth_error_firstn_lt. lia. }
  assert (Hm : (1 <= Nat.min (length p) 1024)%nat) by lia.
  revert Lq Hq Hm. generalize (Nat.min (length p) 1024) (firstn 1024 p). intros m q Lq Hq Hm.
  rewrite (bpm_block_run_is_padded_dp p q m Hm Lq Hq t).
  destruct (div_ceil_facts m Hm) as (_ & B2 & _).
  rewrite <- (padding_neutral q ltac:(lia) (64 * div_ceil m 64 - m) t), Lq. f_equal. lia.
Qed.
