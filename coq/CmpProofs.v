(* C17, the counters of kalign_msa_compare: what one pair of rows adds to them (compare_pair_totals), the invariants the
   double loop over all pairs keeps (all_pairs_inv), and that all-gap columns do not show in the relation tables. *)
From KV Require Import Base Weave WeaveProofs Cmp.
Local Open Scope Z_scope.

(* Cmp.agree walks two tables of codes1 in step and counts the positions where they hold the same entry, aligned
   partners and gaps apart; [matched] is their sum: the entries of the reference table found again in the test table *)
Definition matched (ca cb : list Z) : N := (fst (agree ca cb) + snd (agree ca cb))%N.

Lemma matched_le : forall ca cb, (matched ca cb <= N.of_nat (length ca))%N.
Proof.
  unfold matched. induction ca as [|a ca IH]; intros [|b cb]; simpl; try lia.
  specialize (IH cb). destruct (agree ca cb) as [ia ig]. simpl in IH.
  destruct (negb (a =? -1)), (a =? b); simpl; lia.
Qed.

Lemma matched_refl : forall c, matched c c = N.of_nat (length c).
Proof.
  unfold matched. induction c as [|a c IH]; simpl; auto.
  destruct (agree c c) as [ia ig]. simpl in IH. rewrite Z.eqb_refl.
  destruct (negb (a =? -1)); simpl; lia.
Qed.

Lemma pair_totals_codes : forall x y p q,
  (fst (pair_totals x y) + snd (pair_totals x y) =
   N.of_nat (length (codes1 x y p)) + N.of_nat (length (codes1 y x q)))%N.
Proof.
  induction x as [|a x IH]; intros [|b y] p q; simpl; try lia.
  specialize (IH y (if isalpha b then p + 1 else p) (if isalpha a then q + 1 else q)).
  destruct (pair_totals x y) as [al gp]. simpl in IH.
  destruct (isalpha a), (isalpha b); cbn [length fst snd andb orb] in *; rewrite ?Nat2N.inj_succ; lia.
Qed.

Definition ident_total c := (ident_aligned c + ident_gap c)%N.
Definition ref_total c := (ref_aligned c + ref_gap c)%N.

Lemma compare_pair_totals c xa ya xb yb :
  let c' := compare_pair c xa ya xb yb in
  ident_total c' = (ident_total c + matched (codes1 xa ya 0) (codes1 xb yb 0) + matched (codes1 ya xa 0) (codes1 yb xb 0))%N /\
  ref_total c' = (ref_total c + N.of_nat (length (codes1 xa ya 0)) + N.of_nat (length (codes1 ya xa 0)))%N.
Proof.
  unfold compare_pair, ident_total, ref_total, matched.
  pose proof (pair_totals_codes xa ya 0 0) as HT.
  destruct (pair_totals xa ya) as [ra rg]. destruct (pair_totals xb yb) as [ta tg].
  destruct (agree (codes1 xa ya 0) (codes1 xb yb 0)) as [i1 g1].
  destruct (agree (codes1 ya xa 0) (codes1 yb xb 0)) as [i2 g2].
  simpl in *. lia.
Qed.

Section Inv.
Variables (I : counters -> Prop) (P : list Z -> list Z -> Prop).
Hypothesis step : forall c xa xb ya yb, I c -> P xa xb -> P ya yb -> I (compare_pair c xa ya xb yb).

Lemma pairs_from_inv : forall ra rb c xa xb, P xa xb -> Forall (fun p => P (fst p) (snd p)) (combine ra rb) -> I c ->
  I (pairs_from c xa xb ra rb).
Proof.
  induction ra as [|ya ra IH]; intros [|yb rb] c xa xb Hx Hr Hc; simpl; auto.
  inversion Hr; subst. apply IH; auto.
Qed.

Lemma all_pairs_inv : forall ra rb c, Forall (fun p => P (fst p) (snd p)) (combine ra rb) -> I c -> I (all_pairs c ra rb).
Proof.
  induction ra as [|xa ra IH]; intros [|xb rb] c Hr Hc; simpl; auto.
  inversion Hr; subst. apply IH; auto. apply pairs_from_inv; auto.
Qed.
End Inv.

Lemma codes1_dashes : forall k x y p, codes1 (repeat dash k ++ x) (repeat dash k ++ y) p = codes1 x y p.
Proof. induction k as [|k IH]; intros x y p; [reflexivity|]. cbn [repeat app codes1]. rewrite isalpha_dash. apply IH. Qed.

Lemma codes1_expand : forall x y ng p, length x = length y -> length ng = S (length x) ->
  codes1 (expand ng x) (expand ng y) p = codes1 x y p.
Proof.
  induction x as [|a x IH]; intros [|b y] ng p Hl Hn; simpl in Hl; try lia.
  - destruct ng as [|n ng]; simpl in *; try lia.
    rewrite <- (app_nil_r (repeat dash n)). rewrite codes1_dashes. reflexivity.
  - destruct ng as [|n ng]; simpl in Hn; try lia.
    rewrite !expand_cons_cons, codes1_dashes. cbn [codes1].
    rewrite !(IH y ng) by lia. reflexivity.
Qed.

(* test = reference up to inserted all-gap columns, row by row: every relation is reproduced *)
Lemma all_pairs_same ng1 ng2 w ra rb c : length ng1 = S w -> length ng2 = S w ->
  Forall (fun p => exists x, length x = w /\ fst p = expand ng1 x /\ snd p = expand ng2 x) (combine ra rb) ->
  ident_total c = ref_total c -> ident_total (all_pairs c ra rb) = ref_total (all_pairs c ra rb).
Proof.
  intros H1 H2. apply (all_pairs_inv (fun c => ident_total c = ref_total c)
                        (fun xa xb => exists x, length x = w /\ xa = expand ng1 x /\ xb = expand ng2 x)). clear c.
  intros c xa xb ya yb H (x & Lx & -> & ->) (y & Ly & -> & ->).
  destruct (compare_pair_totals c (expand ng1 x) (expand ng1 y) (expand ng2 x) (expand ng2 y)) as [-> ->].
  rewrite !codes1_expand, !matched_refl by congruence. lia.
Qed.
