(* C01 - Alignment integrity: every input sequence is reproduced exactly.
   The lemmas these theorems rest on are in WeaveProofs.v / PathProofs.v / AssemblyProofs.v /
   RunIntegrityProofs.v and the Tree*.v files.
   They hold for EVERY guide tree and EVERY well-formed raw path.  The premises
   (well-formed raw paths, valid task list) are evaluated on every path and tree the
   implementation produces during the correspondence runs (monitored premises, DESIGN C01). *)
From KV Require Import Base Params Sort SortProofs Weave WeaveProofs WeaveCheck PathProofs AssemblyProofs Api ApiProofs RunIntegrityProofs.
From Coq Require Import Permutation Sorted.
From KV Require Pipeline CladeTasks TreeSchedule TreeAssembly TreePaths.
Local Open Scope nat_scope.

(* make_linear_sequence: deleting the gap characters of the row built from any gap vector gives
   back the residues. *)
Theorem C01_linear_row_reproduces_residues : forall res g,
  length g = S (length res) -> Forall (fun c => c <> dash) res -> degap (expand g res) = res.
Proof. intros res g _ Hd. rewrite degap_expand. exact (degap_id res Hd). Qed.
Print Assumptions C01_linear_row_reproduces_residues.

Theorem C01_linear_row_length : forall res g,
  length g = S (length res) -> length (expand g res) = length res + sum_nat g.
Proof. exact expand_length. Qed.
Print Assumptions C01_linear_row_length.

(* add_gap_info_to_path_n: a well-formed raw path expands to ops that consume every residue of
   side 1 and every residue of side 2 exactly once. *)
Theorem C01_path_expansion_fits : forall lb path,
  kpath_wfb lb path = true ->
  exists ops, add_gap_info lb path = Some ops /\
    ops_fit (map op_kind ops) (length path) (Z.to_nat lb).
Proof. exact expand_path_counts. Qed.
Print Assumptions C01_path_expansion_fits.

(* The progressive assembly.  For every set of dash-free sequences and every task
   list that is valid for the evolving state: every row keeps exactly its residues; when one
   group remains all rows have one length and no column consists of gaps only. *)
Theorem C01_assembly_integrity : forall seqs,
  Forall (Forall (fun c => c <> dash)) seqs ->
  forall tasks,
  valid_runb seqs (st0 seqs) (seq 0 (length seqs)) tasks = true ->
  let final := run_from (st0 seqs) tasks in
  (forall i, i < length seqs -> degap (row_of seqs final i) = nth i seqs []) /\
  (forall r, act_final (seq 0 (length seqs)) tasks = [r] ->
     exists w, (forall i, i < length seqs -> length (row_of seqs final i) = w) /\
               (forall j, j < w -> exists i, i < length seqs /\ nth j (row_of seqs final i) dash <> dash)).
Proof. intros seqs H. exact (assembly_integrity seqs H). Qed.
Print Assumptions C01_assembly_integrity.

(* The whole run (kalign_run / kalign as modelled in Api.v: essential check, canonical sort, conversion, numeric core,
   linearisation, rank sort).  WHATEVER the numeric core returns - as long as it is one vector of len+1 gap counters
   per sequence - the result has one row per non-empty input sequence, in input order, under the input name, and
   deleting the gap characters of a row gives back that sequence's residues.  (Equal row lengths and the absence of
   all-gap columns are the business of C01_assembly_integrity.) *)
Theorem C01_run_reproduces_every_sequence : forall core,
  (forall bt p t a, length t = length a -> Forall2 (fun (g : list nat) (s : list Z) => length g = S (length s)) (core bt p t a) a) ->
  forall bt ty gpo gpe tgpe recs out,
  Forall (fun nr => Forall (fun c => c <> dash) (snd nr)) recs ->
  kalign_run_model core bt ty gpo gpe tgpe recs = Some out ->
  let kept := filter (fun nr : list Z * list Z => match snd nr with [] => false | _ => true end) recs in
  map fst out = map fst kept /\ map (fun o => degap (snd o)) out = map snd kept /\ 2 <= length out.
Proof.
  intros core core_shape bt ty gpo gpe tgpe recs out Hd H. rewrite kalign_run_model_eq, (essential_check_ranks recs) in H.
  destruct (_ || (length (filter _ recs) <=? 1)%nat) eqn:E; [discriminate|].
  destruct (alphabets bt) as [[[ta tamb] [aa aamb]]|]; [|discriminate].
  destruct (init bt ty gpo gpe tgpe) as [p|]; [|discriminate]. injection H as <-.
  apply orb_false_iff in E as [_ Hlen]. apply Nat.leb_gt in Hlen.
  rewrite <- (strip_kept recs 0) in *. rewrite map_length in Hlen.
  set (kept' := filter nonempty_rec (with_ranks 0 recs)) in *.
  set (sorted := sort_len_name kept').
  assert (Hp : Permutation sorted kept') by apply msort_perm.
  assert (Hk : StronglySorted (fun x y => (r_rank x < r_rank y)%Z) kept') by (apply sorted_filter, with_ranks_sorted).
  assert (Hd' : Forall (fun r => Forall (fun c => c <> dash) (r_res r)) sorted).
  { apply Forall_forall. intros r Hr. apply (Permutation_in _ Hp) in Hr. apply filter_In in Hr. destruct Hr as [Hr _].
    clear -Hd Hr. revert Hr. generalize 0%Z. induction recs as [|[nm res] recs IH]; intros i Hr; [contradiction|].
    inversion Hd as [|? ? H1 H2]; subst. destruct Hr as [<-|Hr]; [exact H1|]. apply (IH H2 (i + 1)%Z). exact Hr. }
  unfold run_tail. fold sorted. set (gaps := core bt p _ _).
  assert (Hg : length gaps = length sorted).
  { pose proof (core_shape bt p (map (fun r => convert ta tamb (r_res r)) sorted) (map (fun r => convert aa aamb (r_res r)) sorted)) as C.
    rewrite !map_length in C. apply Forall2_len in C; [|reflexivity]. rewrite map_length in C. exact C. }
  pose proof (rank_restores_order kept' _ sorted Hk Hp (aligned_from gaps sorted Hg Hd')) as R.
  cbv zeta. rewrite !map_map. repeat split.
  - apply (Forall2_map_eq came_from); [|exact R]. intros a r (_ & E & _). exact E.
  - apply (Forall2_map_eq came_from); [|exact R]. intros a r (_ & _ & E). exact E.
  - rewrite map_length, (Forall2_len _ _ _ R). lia.
Qed.
Print Assumptions C01_run_reproduces_every_sequence.

(* the premise on the core is satisfiable, and it is what the weave layer maintains: gap vectors start as len+1 zeros
   and update_gaps maps over the old vector, so their length never changes *)
Example C01_core_premise_nonvacuous :
  (forall (bt : Z) (p : params) (t a : list (list Z)), length t = length a ->
     Forall2 (fun (g : list nat) (s : list Z) => length g = S (length s)) ((fun (_ : Z) (_ : params) (_ a0 : list (list Z)) => map (fun s => repeat 0 (S (length s))) a0) bt p t a) a) /\
  (forall gis ng, length (update_gaps gis ng) = length gis).
Proof.
  split.
  - intros _ _ _ a _. induction a as [|s a IH]; cbn [map]; constructor; [apply repeat_length|exact IH].
  - induction gis as [|g gis IH]; intros ng; [reflexivity|]. cbn [update_gaps length]. f_equal. apply IH.
Qed.

(* the mechanism behind it: sorting by the recorded rank undoes any reordering *)
Theorem C01_rank_restores_input_order : forall kept aligned sorted,
  Sorted.StronglySorted (fun x y => (r_rank x < r_rank y)%Z) kept ->
  Permutation.Permutation sorted kept -> Forall2 came_from aligned sorted ->
  Forall2 came_from (sort_rank aligned) kept.
Proof. exact rank_restores_order. Qed.
Print Assumptions C01_rank_restores_input_order.

(* Non-vacuity: an observed run (see Properties_C10) meets the premises, and a well-formed raw
   path with leading/trailing/internal gaps exists. *)
Example C01_nonvacuous :
  kpath_wfb 14 [2;3;4;5;6;7;8;9;10;11;12;13;-1;-1;14]%Z = true /\
  add_gap_info 14 [2;3;4;5;6;7;8;9;10;11;12;13;-1;-1;14]%Z = Some [33;0;0;0;0;0;0;0;0;0;0;0;0;2;2;0]%Z /\
  kpath_wfb 6 [-1;1;3;-1;4]%Z = true /\
  add_gap_info 6 [-1;1;3;-1;4]%Z = Some [34;0;1;0;2;0;33;33]%Z.
Proof. vm_compute. repeat split; reflexivity. Qed.

(* The structural half of the premise [valid_runb] of C01_assembly_integrity, discharged for every guide tree.
   label_internal numbers the internal nodes of the guide tree in post-order from numseq, create_tasks emits one task
   (a, b, c) per internal node, sort_tasks(TASK_ORDER_TREE) orders them by c.  For EVERY guide tree over distinct
   leaves, every task of that serial schedule finds both operands complete (an input sequence, or the result of an
   EARLIER task), distinct and not yet consumed, and its result label fresh.  (TreeSchedule.v) *)
Theorem C01_schedule_respects_the_guide_tree : forall t n,
  NoDup (CladeTasks.leaves t) -> (forall i, In i (CladeTasks.leaves t) -> i < n) ->
  forall pre a b c post,
  Pipeline.sort_tasks (Pipeline.tasks_of (fst (Pipeline.label t n))) = (pre ++ (a, b, c) :: post)%list ->
  (a < n \/ exists a1 a2, In (a1, a2, a) pre) /\
  (b < n \/ exists b1 b2, In (b1, b2, b) pre) /\
  a <> b /\ n <= c /\
  (forall x y z, In (x, y, z) pre -> z <> c /\ x <> a /\ x <> b /\ y <> a /\ y <> b).
Proof. exact TreeSchedule.tree_schedule_respects_dependencies. Qed.
Print Assumptions C01_schedule_respects_the_guide_tree.

(* ... and the schedule is complete: one task per internal node (leaves - 1 of them), and every label - input or
   produced - is consumed exactly once except the root, which is what remains. *)
Theorem C01_schedule_is_complete : forall t n,
  NoDup (CladeTasks.leaves t) -> (forall i, In i (CladeTasks.leaves t) -> i < n) ->
  let L := Pipeline.sort_tasks (Pipeline.tasks_of (fst (Pipeline.label t n))) in
  length L = length (CladeTasks.leaves t) - 1 /\
  Permutation.Permutation (Pipeline.lid (fst (Pipeline.label t n)) :: TreeSchedule.kids L)
                          (CladeTasks.leaves t ++ map TreeSchedule.tc L).
Proof. exact TreeSchedule.tree_schedule_is_complete. Qed.
Print Assumptions C01_schedule_is_complete.

(* The same in the vocabulary of C01_assembly_integrity: along the schedule of ANY guide tree every task finds its two
   operands in the list of active groups (act_after, as in valid_run), distinct, and its result label not active. *)
Theorem C01_guide_tree_schedule_is_valid : forall t n,
  NoDup (CladeTasks.leaves t) -> (forall i, In i (CladeTasks.leaves t) -> i < n) ->
  TreeSchedule.sched_ok (seq 0 n) (Pipeline.sort_tasks (Pipeline.tasks_of (fst (Pipeline.label t n)))).
Proof. exact TreeSchedule.tree_schedule_ok. Qed.
Print Assumptions C01_guide_tree_schedule_is_valid.

(* C01_assembly_integrity with its structural premise discharged: for EVERY guide tree over the input sequences, run
   in kalign's serial order, and every family of edit operations that fit the groups they join (fits_runb: the part of
   valid_runb that speaks about the operations; monitored on every observed merge), every row keeps exactly its residues,
   all rows have one length and no column consists of gaps only - and exactly one group, the root, is left. *)
Theorem C01_assembly_integrity_for_every_guide_tree : forall seqs,
  Forall (Forall (fun c => c <> dash)) seqs ->
  forall t, NoDup (CladeTasks.leaves t) -> (forall i, In i (CladeTasks.leaves t) <-> i < length seqs) ->
  forall tasks,
  map TreeAssembly.strip tasks = Pipeline.sort_tasks (Pipeline.tasks_of (fst (Pipeline.label t (length seqs)))) ->
  TreeAssembly.fits_runb seqs (st0 seqs) tasks = true ->
  let final := run_from (st0 seqs) tasks in
  (forall i, i < length seqs -> degap (row_of seqs final i) = nth i seqs []) /\
  exists w, (forall i, i < length seqs -> length (row_of seqs final i) = w) /\
            (forall j, j < w -> exists i, i < length seqs /\ nth j (row_of seqs final i) dash <> dash).
Proof. exact TreeAssembly.assembly_integrity_any_tree. Qed.
Print Assumptions C01_assembly_integrity_for_every_guide_tree.

(* non-vacuity: the observed run of Properties_C10 (tree ((0,1),2), labels 3 and 4) meets the premises *)
Example C01_every_guide_tree_nonvacuous :
  let seqs := [[67;71;84;65;67;71;84;84;71;65;67;67;65;71;71]; [65;67;71;84;65;67;71;84;84;71;65;67;67;65];
               [65;67;71;84;67;71;84;84;84;71;65;67;65]]%Z in
  let tasks := [(0, 1, 3, [33;0;0;0;0;0;0;0;0;0;0;0;0;2;2;0]%Z); (3, 2, 4, [0;0;0;0;0;0;0;0;0;0;0;0;2;2;2;0]%Z)] in
  let t := Pipeline.UNode (Pipeline.UNode (Pipeline.ULeaf 0) (Pipeline.ULeaf 1)) (Pipeline.ULeaf 2) in
  map TreeAssembly.strip tasks = Pipeline.sort_tasks (Pipeline.tasks_of (fst (Pipeline.label t 3))) /\
  TreeAssembly.fits_runb seqs (st0 seqs) tasks = true /\ CladeTasks.leaves t = [0; 1; 2].
Proof. vm_compute. repeat split; reflexivity. Qed.

(* The task list is BUILT (TreePaths.build_tasks) from the schedule of the guide tree
   and one raw path per merge - what the DP kernels hand to add_gap_info - each required only to be well-formed
   (kpath_wfb) for the widths the two groups have at that moment.  For EVERY guide tree and EVERY such family of raw
   paths the alignment reproduces every sequence, has rows of one length and no all-gap column.  The only premise left
   about the numeric core is kpath_wfb with the right dimensions; it is monitored on every merge of every observed run
   (keys wf / dims of the correspondence). *)
Theorem C01_integrity_for_every_guide_tree_and_wf_path : forall seqs,
  Forall (Forall (fun c => c <> dash)) seqs ->
  forall t, NoDup (CladeTasks.leaves t) -> (forall i, In i (CladeTasks.leaves t) <-> i < length seqs) ->
  forall paths tasks,
  TreePaths.build_tasks seqs (st0 seqs) (Pipeline.sort_tasks (Pipeline.tasks_of (fst (Pipeline.label t (length seqs))))) paths = Some tasks ->
  let final := run_from (st0 seqs) tasks in
  (forall i, i < length seqs -> degap (row_of seqs final i) = nth i seqs []) /\
  exists w, (forall i, i < length seqs -> length (row_of seqs final i) = w) /\
            (forall j, j < w -> exists i, i < length seqs /\ nth j (row_of seqs final i) dash <> dash).
Proof. exact TreePaths.integrity_every_tree_every_wf_path. Qed.
Print Assumptions C01_integrity_for_every_guide_tree_and_wf_path.

(* non-vacuity: the raw paths of the observed run (Properties_C10) build exactly its task list *)
Example C01_build_tasks_nonvacuous :
  let seqs := [[67;71;84;65;67;71;84;84;71;65;67;67;65;71;71]; [65;67;71;84;65;67;71;84;84;71;65;67;67;65];
               [65;67;71;84;67;71;84;84;84;71;65;67;65]]%Z in
  let t := Pipeline.UNode (Pipeline.UNode (Pipeline.ULeaf 0) (Pipeline.ULeaf 1)) (Pipeline.ULeaf 2) in
  TreePaths.build_tasks seqs (st0 seqs) (Pipeline.sort_tasks (Pipeline.tasks_of (fst (Pipeline.label t 3))))
    [[2;3;4;5;6;7;8;9;10;11;12;13;-1;-1;14]; [1;2;3;4;5;6;7;8;9;10;11;12;-1;-1;-1;13]]%Z =
  Some [(0, 1, 3, [33;0;0;0;0;0;0;0;0;0;0;0;0;2;2;0]%Z); (3, 2, 4, [0;0;0;0;0;0;0;0;0;0;0;0;2;2;2;0]%Z)].
Proof. vm_compute. reflexivity. Qed.

Example C01_schedule_nonvacuous :
  let t := Pipeline.UNode (Pipeline.UNode (Pipeline.ULeaf 3) (Pipeline.ULeaf 0)) (Pipeline.UNode (Pipeline.ULeaf 2) (Pipeline.UNode (Pipeline.ULeaf 1) (Pipeline.ULeaf 4))) in
  Pipeline.tasks_of (fst (Pipeline.label t 5)) = [(5, 7, 8); (3, 0, 5); (2, 6, 7); (1, 4, 6)] /\
  Pipeline.sort_tasks (Pipeline.tasks_of (fst (Pipeline.label t 5))) = [(3, 0, 5); (1, 4, 6); (2, 6, 7); (5, 7, 8)].
Proof. vm_compute. split; reflexivity. Qed.
