(* C17 - The alignment-comparison score is exact.
   The lemmas behind the statements are in CmpProofs.v, CmpProofs2.v and CmpFloatProofs.v.
   The counters are proved at full generality, and so is the floating-point end: the final
   "100.0 * a / b" (binary64 multiply and divide, stored into a float; Flocq's IEEE-754 model) gives
   exactly 100.0f when a = b and a finite float in [0, 100] whenever a <= b, for all counter values
   below 2^46 (they are uint64_t in the code; the bound keeps 100 * a below 2^53).  The model of that
   expression is also tied bit for bit to kalign_msa_compare by the correspondence. *)
From KV Require Import Base FP FPFacts SortProofs Weave Cmp CmpProofs CmpProofs2 CmpFloatProofs.
From Coq Require Import Reals.
From Flocq Require Import Core IEEE754.Binary.
From Coq Require Import Permutation.
Local Open Scope Z_scope.

(* what the two per-pair tables list: one relation (partner index or gap) per residue of each row;
   the reference totals are exactly the number of listed relations *)
Theorem C17_reference_totals_count_relations : forall x y,
  (fst (pair_totals x y) + snd (pair_totals x y) =
   N.of_nat (length (codes1 x y 0)) + N.of_nat (length (codes1 y x 0)))%N.
Proof. intros. apply pair_totals_codes. Qed.
Print Assumptions C17_reference_totals_count_relations.

(* range: never more reproduced relations than reference relations (so 0 <= a/b <= 1) *)
Theorem C17_range_counters : forall r t,
  (ident_total (compare_counters r t) <= ref_total (compare_counters r t))%N.
Proof.
  intros r t.
  apply (all_pairs_inv (fun c => (ident_total c <= ref_total c)%N) (fun _ _ => True)); [|apply Forall_forall; trivial|reflexivity].
  intros c xa xb ya yb H _ _. destruct (compare_pair_totals c xa ya xb yb) as [-> ->].
  pose proof (matched_le (codes1 xa ya 0) (codes1 xb yb 0)). pose proof (matched_le (codes1 ya xa 0) (codes1 yb xb 0)). lia.
Qed.
Print Assumptions C17_range_counters.

(* the order of the rows in either alignment does not matter (unique names) *)
Theorem C17_row_order : forall r r' t t',
  names_distinct r -> names_distinct t -> Permutation r r' -> Permutation t t' ->
  compare_counters r' t' = compare_counters r t.
Proof.
  intros r r' t t' Hr Ht Pr Pt. unfold compare_counters.
  rewrite <- (sort_both_canonical r r' Hr Pr), <- (sort_both_canonical t t' Ht Pt). reflexivity.
Qed.
Print Assumptions C17_row_order.

(* all-gap columns are invisible to the relation tables *)
Theorem C17_allgap_columns_invisible : forall x y ng p,
  length x = length y -> length ng = S (length x) ->
  codes1 (expand ng x) (expand ng y) p = codes1 x y p.
Proof. exact codes1_expand. Qed.
Print Assumptions C17_allgap_columns_invisible.

(* same alignment up to row order and all-gap columns: every reference relation is reproduced,
   i.e. a = b and the score is 100 * a / a *)
Theorem C17_same_alignment_reproduces_everything : forall ng1 ng2 w,
  length ng1 = S w -> length ng2 = S w ->
  forall R T0 T, names_distinct R -> names_distinct T0 ->
  Forall2 (same_row ng1 ng2 w) R T0 -> Permutation T0 T ->
  ident_total (compare_counters R T) = ref_total (compare_counters R T).
Proof.
  intros ng1 ng2 w H1 H2 R T0 T HR HT Hrel Hp. unfold compare_counters.
  rewrite <- (sort_both_canonical T0 T HT Hp).
  (* sorting both sides keeps related rows at the same positions *)
  pose proof (msort_Forall2 (rel_in ng1 ng2 w R T0) cmp_both cmp_both (rel_in_cmp ng1 ng2 w R T0 HR HT) R T0
                (Forall2_in_both _ R T0 _ _ Hrel (incl_refl _) (incl_refl _))) as Hs.
  apply (all_pairs_same ng1 ng2 w); auto. exact (rows_related ng1 ng2 w R T0 _ _ Hs).
Qed.
Print Assumptions C17_same_alignment_reproduces_everything.

(* the floating-point end, for all counter values below 2^46: a = b > 0 gives exactly 100.0f = 0x42c80000 ... *)
Theorem C17_equal_counters_give_exactly_100 : forall c,
  ident_total c = ref_total c -> (0 < ref_total c < 2 ^ 46)%N -> score_of c = 1120403456%N.
Proof.
  intros c E R. unfold score_of. fold (ident_total c) (ref_total c). rewrite E. unfold f64_of_N. fold c100.
  set (n := Z.of_N (ref_total c)). assert (Hn : 0 < n < 2 ^ 46) by (unfold n; change (2 ^ 46) with (Z.of_N (2 ^ 46)); lia).
  destruct (score64_correct n n ltac:(lia) Hn) as (V & F & S). destruct c100_val as (Vc & Fc & Sc).
  replace (IZR (100 * n) / IZR n)%R with 100%R in V by (rewrite mult_IZR; field; apply Rgt_not_eq, IZR_lt; lia).
  rewrite round_generic in V; [|apply valid_rnd_N|apply (fmt_int 53 1024 100); lia].
  (* the quotient is the double 100.0 itself: same value, same sign *)
  rewrite (B2R_Bsign_inj 53 1024 _ c100 F Fc); [vm_compute; reflexivity|rewrite V, Vc; reflexivity|rewrite S, Sc; reflexivity].
Qed.
Print Assumptions C17_equal_counters_give_exactly_100.

(* ... hence: the same alignment up to row order and all-gap columns scores exactly 100 (0 < b < 2^46) *)
Theorem C17_same_alignment_scores_100 : forall ng1 ng2 w,
  length ng1 = S w -> length ng2 = S w ->
  forall R T0 T, names_distinct R -> names_distinct T0 ->
  Forall2 (same_row ng1 ng2 w) R T0 -> Permutation T0 T ->
  (0 < ref_total (compare_counters R T) < 2 ^ 46)%N ->
  score_of (compare_counters R T) = 1120403456%N.
Proof.
  intros ng1 ng2 w H1 H2 R T0 T HR HT Hrel Hp Hb. apply C17_equal_counters_give_exactly_100; [|exact Hb].
  exact (C17_same_alignment_reproduces_everything ng1 ng2 w H1 H2 R T0 T HR HT Hrel Hp).
Qed.
Print Assumptions C17_same_alignment_scores_100.

(* ... and every score with 0 < b < 2^46 is a finite float between 0 and 100 (the counters always satisfy a <= b) *)
Theorem C17_score_between_0_and_100 : forall r t,
  (0 < ref_total (compare_counters r t) < 2 ^ 46)%N ->
  exists x : f32, score_of (compare_counters r t) = bits_of_f32 x /\ is_finite 24 128 x = true /\
                  (0 <= B2R 24 128 x <= 100)%R.
Proof. intros r t Hb. apply score_in_range; [apply C17_range_counters|exact Hb]. Qed.
Print Assumptions C17_score_between_0_and_100.

(* Non-vacuity and the float end of the computation on a concrete pair: score 100.0f = 0x42c80000 *)
Example C17_nonvacuous :
  let r := [([97], [65;67;45;71;84]); ([98], [65;67;71;71;84]); ([99], [65;45;45;71;84])] in
  let t := [([99], [65;45;45;45;71;84]); ([97], [65;67;45;45;71;84]); ([98], [65;67;45;71;71;84])] in
  snd (compare_model r t) = 1120403456%N /\
  ident_total (fst (compare_model r t)) = ref_total (fst (compare_model r t)).
Proof. vm_compute. split; reflexivity. Qed.
